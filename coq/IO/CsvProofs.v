(* C16 — proofs about the csv.reader machine: every writer-style record (each field quoted when it must
   be, or although it need not be) round-trips through it, for fields within the reader's size limit. *)
From Coq Require Import List NArith Bool Lia.
From Outrank Require Import IO.Str IO.StrProofs IO.Csv.
Import ListNotations.
Open Scope N_scope.

Definition flen_ok (f : list N) : Prop := N.of_nat (length f) <= field_limit.

Lemma run_app s l1 l2 : run s (l1 ++ l2) = run (run s l1) l2.
Proof. unfold run. apply fold_left_app. Qed.

Lemma run_cons s c l : run s (c :: l) = run (step s (Some c)) l.
Proof. reflexivity. Qed.

Lemma special_false c : special c = false -> (c =? COMMA) = false /\ (c =? QUOTE) = false /\ is_nl c = false.
Proof. unfold special. intros H. apply orb_false_iff in H. destruct H as [H Hnl]. apply orb_false_iff in H. tauto. Qed.

Lemma add_ok' s0 p a n c next : n < field_limit -> add (mk s0 p a n) c next = mk next (c :: p) a (n + 1).
Proof. intros H. unfold add. cbn [flen pend acc]. apply N.leb_gt in H. rewrite H. reflexivity. Qed.

Lemma add_ok p a n c next : n < field_limit -> add (mk InField p a n) c next = mk next (c :: p) a (n + 1).
Proof. apply add_ok'. Qed.

Lemma len_cons (c : N) f : N.of_nat (length (c :: f)) = N.of_nat (length f) + 1.
Proof. cbn [length]. lia. Qed.

Lemma run_bare_infield f : forall p a n, needs_quote f = false -> n + N.of_nat (length f) <= field_limit ->
  run (mk InField p a n) f = mk InField (rev f ++ p) a (n + N.of_nat (length f)).
Proof.
  induction f as [|c f IH]; intros p a n H Hn; [cbn [length]; rewrite N.add_0_r; reflexivity|].
  cbn [needs_quote existsb] in H. apply orb_false_iff in H. destruct H as [Hc Hf].
  destruct (special_false c Hc) as (Hcomma & Hq & Hnl). rewrite len_cons in *.
  rewrite run_cons.
  assert (E : step (mk InField p a n) (Some c) = mk InField (c :: p) a (n + 1)).
  { unfold step. cbn [state]. rewrite Hnl, Hcomma. apply add_ok'. lia. }
  rewrite E, IH; [|exact Hf|lia]. cbn [rev]. rewrite <- app_assoc. f_equal. lia.
Qed.

Lemma run_bare_start f a s0 : (s0 = StartField \/ s0 = StartRecord) -> f <> [] -> needs_quote f = false -> flen_ok f ->
  run (mk s0 [] a 0) f = mk InField (rev f) a (N.of_nat (length f)).
Proof.
  intros Hs Hne H Hl. destruct f as [|c f]; [congruence|]. unfold flen_ok in Hl. rewrite len_cons in *.
  cbn [needs_quote existsb] in H. apply orb_false_iff in H. destruct H as [Hc Hf].
  destruct (special_false c Hc) as (Hcomma & Hq & Hnl).
  rewrite run_cons.
  assert (E : step (mk s0 [] a 0) (Some c) = mk InField [c] a 1).
  { destruct Hs as [-> | ->]; unfold step; cbn [state]; try rewrite Hnl; unfold start_field; rewrite Hnl, Hq, Hcomma;
      apply add_ok'; unfold field_limit; lia. }
  rewrite E, run_bare_infield; [|exact Hf|lia]. cbn [rev]. f_equal. lia.
Qed.

Lemma run_esc f : forall p a n, n + N.of_nat (length f) <= field_limit ->
  run (mk InQuoted p a n) (esc f) = mk InQuoted (rev f ++ p) a (n + N.of_nat (length f)).
Proof.
  induction f as [|c f IH]; intros p a n Hn; [cbn [length]; rewrite N.add_0_r; reflexivity|].
  rewrite len_cons in *.
  unfold esc. cbn [flat_map]. fold (esc f). destruct (c =? QUOTE) eqn:Eq.
  - apply N.eqb_eq in Eq. subst c. cbn [app]. rewrite !run_cons.
    assert (E : step (step (mk InQuoted p a n) (Some QUOTE)) (Some QUOTE) = mk InQuoted (QUOTE :: p) a (n + 1)).
    { unfold step at 2. cbn [state]. rewrite N.eqb_refl. unfold goto. cbn [pend acc flen].
      unfold step. cbn [state]. rewrite N.eqb_refl. apply add_ok'. lia. }
    rewrite E, IH by lia. cbn [rev]. rewrite <- app_assoc. f_equal. lia.
  - cbn [app]. rewrite run_cons.
    assert (E : step (mk InQuoted p a n) (Some c) = mk InQuoted (c :: p) a (n + 1)).
    { unfold step. cbn [state]. rewrite Eq. apply add_ok'. lia. }
    rewrite E, IH by lia. cbn [rev]. rewrite <- app_assoc. f_equal. lia.
Qed.

Lemma run_quoted f a s0 : (s0 = StartField \/ s0 = StartRecord) -> flen_ok f ->
  run (mk s0 [] a 0) (quoted f) = mk QuoteInQuoted (rev f) a (N.of_nat (length f)).
Proof.
  intros Hs Hl. unfold quoted. rewrite run_cons.
  assert (E : step (mk s0 [] a 0) (Some QUOTE) = mk InQuoted [] a 0).
  { destruct Hs as [-> | ->]; reflexivity. }
  rewrite E, run_app, run_esc by (rewrite N.add_0_l; exact Hl). rewrite run_cons. cbn [run fold_left].
  rewrite app_nil_r, N.add_0_l. unfold step. cbn [state]. rewrite N.eqb_refl. reflexivity.
Qed.

(* state after a rendered field: one of three field-complete shapes, all of which save the same field on COMMA / newline / end of line *)
Definition done_with (s : pst) (f : list ch) (a : list (list ch)) : Prop :=
  acc s = a /\
  ((state s = InField /\ rev (pend s) = f /\ f <> []) \/
   (state s = QuoteInQuoted /\ rev (pend s) = f) \/
   ((state s = StartField) /\ pend s = [] /\ f = [])).

(* a record may begin with any field except one that is written as nothing *)
Lemma after_field s0 q f a :
  s0 = StartField \/ (s0 = StartRecord /\ render_field_q q f <> []) -> flen_ok f ->
  done_with (run (mk s0 [] a 0) (render_field_q q f)) f a.
Proof.
  intros Hs Hl.
  assert (Hs0 : s0 = StartField \/ s0 = StartRecord) by (destruct Hs as [->|[-> _]]; auto).
  unfold render_field_q in *. destruct (q || needs_quote f) eqn:E.
  - rewrite run_quoted by assumption. split; [reflexivity|]. right; left. cbn. rewrite rev_involutive. auto.
  - apply orb_false_iff in E. destruct E as [_ E]. destruct f as [|c f'].
    + destruct Hs as [->|[_ H]]; [|congruence]. split; [reflexivity|]. right; right. auto.
    + rewrite run_bare_start; [|exact Hs0|discriminate|exact E|exact Hl]. split; [reflexivity|]. left. cbn [state pend].
      rewrite rev_involutive. repeat split. discriminate.
Qed.

Ltac done_tac := cbn in *; subst; cbn; unfold save, add, goto; cbn [state pend acc]; rewrite ?frev_rev; reflexivity.

Lemma done_comma s f a : done_with s f a -> step s (Some COMMA) = mk StartField [] (f :: a) 0.
Proof. intros [Ha [[Hs [Hp _]]|[[Hs Hp]|[Hs [Hp Hf]]]]]; destruct s as [s0 p a0 n]; done_tac. Qed.
Lemma done_eol s f a : done_with s f a -> step s None = mk StartRecord [] (f :: a) 0.
Proof. intros [Ha [[Hs [Hp _]]|[[Hs Hp]|[Hs [Hp Hf]]]]]; destruct s as [s0 p a0 n]; done_tac. Qed.

Lemma is_nl_cases c : is_nl c = true -> c = LF \/ c = CR.
Proof. unfold is_nl. intros H. apply orb_true_iff in H. destruct H as [H|H]; apply N.eqb_eq in H; auto. Qed.

Lemma done_nl s f a c : is_nl c = true -> done_with s f a -> step s (Some c) = mk EatCRNL [] (f :: a) 0.
Proof.
  intros Hc [Ha [[Hs [Hp _]]|[[Hs Hp]|[Hs [Hp Hf]]]]]; destruct s as [s0 p a0 n];
    destruct (is_nl_cases c Hc) as [-> | ->]; done_tac.
Qed.

(* also when the field is written as nothing *)
Lemma first_field_comma q f a : flen_ok f ->
  step (run (mk StartRecord [] a 0) (render_field_q q f)) (Some COMMA) = mk StartField [] (f :: a) 0.
Proof.
  intros Hl. destruct (render_field_q q f) as [|c r] eqn:E.
  - unfold render_field_q, quoted in E. destruct (q || needs_quote f); [discriminate|]. subst f. reflexivity.
  - rewrite <- E. apply done_comma, after_field; [|exact Hl]. right. split; [reflexivity|]. rewrite E. discriminate.
Qed.

Lemma run_eat term : forall a n, forallb is_nl term = true -> run (mk EatCRNL [] a n) term = mk EatCRNL [] a n.
Proof.
  induction term as [|c term IH]; intros a n H; [reflexivity|]. cbn [forallb] in H. apply andb_true_iff in H.
  destruct H as [Hc Ht]. rewrite run_cons.
  assert (E : step (mk EatCRNL [] a n) (Some c) = mk EatCRNL [] a n). { unfold step. cbn [state]. rewrite Hc. reflexivity. }
  rewrite E. apply IH, Ht.
Qed.

Lemma join_q_cons q f r rest : join_q ((q, f) :: r :: rest) = render_field_q q f ++ COMMA :: join_q (r :: rest).
Proof. destruct r. reflexivity. Qed.

Lemma run_join_q row : forall a, row <> [] -> Forall flen_ok (map snd row) ->
  exists f0 rest, map snd row = rest ++ [f0] /\ done_with (run (mk StartField [] a 0) (join_q row)) f0 (rev rest ++ a).
Proof.
  induction row as [|[q f] row IH]; intros a Hne HF; [congruence|].
  cbn [map snd] in HF. inversion HF as [|? ? Hf HF']; subst.
  destruct row as [|r row'].
  - cbn [join_q]. exists f, []. split; [reflexivity|]. apply after_field; [left; reflexivity|exact Hf].
  - rewrite join_q_cons, run_app, run_cons.
    rewrite (done_comma _ f a) by (apply after_field; [left; reflexivity|exact Hf]).
    destruct (IH (f :: a)) as [f0 [rest [Hfs Hd]]]; [discriminate|exact HF'|].
    exists f0, (f :: rest). split; [cbn [map snd] in *; rewrite Hfs; reflexivity|].
    cbn [rev]. rewrite <- app_assoc. exact Hd.
Qed.

(* after the rendered record the machine has every field but the last saved, and the last one complete *)
Lemma run_render_q row : row <> [] -> Forall flen_ok (map snd row) ->
  exists f0 rest, map snd row = rest ++ [f0] /\ done_with (run init (render_q row)) f0 (rev rest).
Proof.
  intros Hne HF. destruct row as [|[q f] [|r row']]; [congruence| |];
    cbn [map snd] in HF; inversion HF as [|? ? Hf HF']; subst.
  - (* one field; an empty one is written as two quote characters *)
    exists f, []. split; [reflexivity|]. destruct f as [|c f'].
    + split; [reflexivity|]. right; left. split; reflexivity.
    + apply (after_field StartRecord); [|exact Hf]. right. split; [reflexivity|].
      unfold render_field_q, quoted. destruct (q || needs_quote (c :: f')); discriminate.
  - (* the first field, a comma, then the other fields as from any field start *)
    assert (Hr : render_q ((q, f) :: r :: row') = join_q ((q, f) :: r :: row')) by (destruct f; reflexivity).
    rewrite Hr, join_q_cons, run_app, run_cons. unfold init. rewrite first_field_comma by exact Hf.
    destruct (run_join_q (r :: row') [f]) as [f0 [rest [Hfs Hd]]]; [discriminate|exact HF'|].
    exists f0, (f :: rest). split; [cbn [map snd] in *; rewrite Hfs; reflexivity|exact Hd].
Qed.

(* any quoting choice, any terminator made of CR / LF characters (LF as the streaming loop sees it, CR LF as
   csv.writer emits it, nothing for a last line without terminator) *)
Theorem roundtrip_q_term row term : row <> [] -> Forall flen_ok (map snd row) -> forallb is_nl term = true ->
  parse (render_q row ++ term) = Some (map snd row).
Proof.
  intros Hne HF Ht. destruct (run_render_q row Hne HF) as (f0 & rest & Hfs & Hd).
  unfold parse. rewrite run_app. destruct term as [|c term].
  - cbn [run fold_left]. rewrite (done_eol _ _ _ Hd). cbn [state acc]. rewrite frev_rev. cbn [rev]. rewrite rev_involutive.
    f_equal. symmetry. exact Hfs.
  - cbn [forallb] in Ht. apply andb_true_iff in Ht. destruct Ht as [Hc Ht].
    rewrite run_cons, (done_nl _ _ _ c Hc Hd), run_eat by exact Ht.
    cbn [step state goto acc pend]. rewrite frev_rev. cbn [rev]. rewrite rev_involutive. f_equal. symmetry. exact Hfs.
Qed.

Lemma map_snd_pair (fs : list (list N)) : map snd (map (fun f => (false, f)) fs) = fs.
Proof. rewrite map_map. cbn [snd]. apply map_id. Qed.

(* QUOTE_MINIMAL *)
Theorem roundtrip_term fs term : fs <> [] -> Forall flen_ok fs -> forallb is_nl term = true ->
  parse (render fs ++ term) = Some fs.
Proof.
  intros Hne HF Ht. unfold render. rewrite roundtrip_q_term; [rewrite map_snd_pair; reflexivity| |rewrite map_snd_pair; exact HF|exact Ht].
  destruct fs; [congruence|discriminate].
Qed.

Theorem roundtrip fs : fs <> [] -> Forall flen_ok fs -> parse (render fs ++ [LF]) = Some fs.
Proof. intros Hne HF. apply roundtrip_term; [exact Hne|exact HF|reflexivity]. Qed.

Lemma run_err l : forall p a n, run (mk Err p a n) l = mk Err p a n.
Proof. induction l as [|c l IH]; intros p a n; [reflexivity|]. rewrite run_cons. apply IH. Qed.

Lemma needs_quote_repeat c k : special c = false -> needs_quote (repeat c k) = false.
Proof. intros H. induction k as [|k IH]; [reflexivity|]. cbn [repeat needs_quote existsb]. rewrite H. exact IH. Qed.

(* one character beyond the limit: csv.Error (here for a bare field of equal characters) *)
Theorem limit_exceeded c term : special c = false ->
  parse (repeat c (N.to_nat field_limit + 1) ++ term) = None.
Proof.
  intros Hc. set (k := N.to_nat field_limit).
  assert (Hk : N.of_nat k = field_limit) by apply N2Nat.id.
  assert (Hk0 : k <> 0%nat). { intros E. rewrite E in Hk. discriminate Hk. }
  unfold parse. rewrite repeat_app, !run_app. unfold init.
  rewrite run_bare_start; [|now right| destruct k; [congruence|discriminate] | apply needs_quote_repeat, Hc
                          | unfold flen_ok; rewrite repeat_length, Hk; apply N.le_refl].
  rewrite repeat_length, Hk.
  assert (E : step (mk InField (rev (repeat c k)) [] field_limit) (Some c) = mk Err (rev (repeat c k)) [] field_limit).
  { destruct (special_false c Hc) as (Hcomma & _ & Hnl).
    unfold step. cbn [state]. rewrite Hnl, Hcomma. unfold add. cbn [flen pend acc]. rewrite N.leb_refl. reflexivity. }
  cbn [repeat]. rewrite run_cons, E, !run_err. reflexivity.
Qed.

Lemma none_nl_esc f : none is_nl f -> none is_nl (esc f).
Proof.
  induction f as [|c f IH]; intros H; [reflexivity|]. apply none_cons in H. destruct H as [Hc Hf].
  unfold esc. cbn [flat_map]. fold (esc f). apply none_app. split; [|auto].
  destruct (c =? QUOTE) eqn:E.
  - apply N.eqb_eq in E. subst c. reflexivity.
  - apply none_cons. split; [exact Hc|reflexivity].
Qed.

Lemma none_nl_render_field q f : none is_nl f -> none is_nl (render_field_q q f).
Proof.
  intros H. unfold render_field_q, quoted. destruct (q || needs_quote f); [|exact H].
  apply none_cons. split; [reflexivity|]. apply none_app. split; [apply none_nl_esc, H|reflexivity].
Qed.

Lemma none_nl_join row : Forall (none is_nl) (map snd row) -> none is_nl (join_q row).
Proof.
  induction row as [|[q f] row IH]; intros H; [reflexivity|]. cbn [map snd] in H. inversion H as [|? ? Hf H']; subst.
  destruct row as [|r row']; [apply none_nl_render_field, Hf|].
  rewrite join_q_cons. apply none_app. split; [apply none_nl_render_field, Hf|]. apply none_cons. split; [reflexivity|apply IH, H'].
Qed.

Lemma none_nl_render_q row : Forall (none is_nl) (map snd row) -> none is_nl (render_q row).
Proof.
  intros H. unfold render_q. destruct row as [|[q [|c f]] [|g r]]; try apply none_nl_join, H. reflexivity.
Qed.

Theorem csv_physical_lines_q rows : Forall (fun row => Forall (none is_nl) (map snd row)) rows ->
  phys_lines (concat (map (fun r => render_q r ++ [LF]) rows)) = map (fun r => render_q r ++ [LF]) rows.
Proof.
  intros H. rewrite <- (map_map render_q (fun l => l ++ [LF])). apply phys_lines_concat.
  apply Forall_map. eapply Forall_impl; [|exact H]. intros r. apply none_nl_render_q.
Qed.

Theorem csv_physical_lines rows : Forall (Forall (none is_nl)) rows ->
  phys_lines (concat (map (fun r => render r ++ [LF]) rows)) = map (fun r => render r ++ [LF]) rows.
Proof.
  intros H. unfold render.
  rewrite <- (map_map (map (fun f => (false, f))) (fun r => render_q r ++ [LF])).
  apply csv_physical_lines_q. apply Forall_map. eapply Forall_impl; [|exact H]. intros r Hr. rewrite map_snd_pair. exact Hr.
Qed.

(* why the hypothesis is needed: a quoted cell with a line break is legal CSV, but the pipeline reads
   physical lines; the record x, quote y LF z,w quote splits into two lines that BOTH pass the two-column
   field-count test with wrong cells *)
Theorem csv_linebreak_hypothesis_needed :
  exists row : list (list N),
    length row = 2%nat /\
    parse (render row ++ [LF]) = Some row /\
    exists r1 r2, map parse (phys_lines (render row ++ [LF])) = [Some r1; Some r2] /\
                  length r1 = 2%nat /\ length r2 = 2%nat /\ r1 <> row /\ r2 <> row.
Proof.
  exists [[120]; [121; 10; 122; 44; 119]]. split; [reflexivity|]. split; [vm_compute; reflexivity|].
  exists [[120]; [121; 10]], [[122]; [119; 34]]. vm_compute. repeat split; discriminate.
Qed.

(* splitting on commas instead of running the reader mis-aligns quoted cells *)
Theorem csv_naive_refuted :
  exists row : list (list N), Forall (none is_nl) row /\ parse (render row ++ [LF]) = Some row /\
    parse_naive (render row ++ [LF]) <> row /\ length (parse_naive (render row ++ [LF])) <> length row.
Proof.
  exists [[97; 44; 98]; [99]]. split; [repeat constructor|]. split; vm_compute; [reflexivity|]. split; discriminate.
Qed.

Example csv_nonvacuous :
  let row := [[]; [97; 44; 34; 98; 34]; [32; 120; 32]; []; [233; 9; 8364]; [34]] in
  render row = [44; 34; 97; 44; 34; 34; 98; 34; 34; 34; 44; 32; 120; 32; 44; 44; 233; 9; 8364; 44; 34; 34; 34; 34] /\
  parse (render row ++ [LF]) = Some row.
Proof. split; vm_compute; reflexivity. Qed.

(* every field quoted, as QUOTE_ALL writes it *)
Example csv_quoted_nonvacuous :
  let row := [(true, [97]); (true, []); (false, [98]); (true, [99; 34; 44])] in
  render_q row = [34; 97; 34; 44; 34; 34; 44; 98; 44; 34; 99; 34; 34; 44; 34] /\
  parse (render_q row ++ [LF]) = Some [[97]; []; [98]; [99; 34; 44]].
Proof. split; vm_compute; reflexivity. Qed.
