(* C16 — the VW parser puts every namespace's tokens, joined by '-' and without the first two
   characters, into the column of that namespace; absent namespaces are None; label = first token. *)
From Coq Require Import List NArith Bool Lia.
From Outrank Require Import IO.Str IO.StrProofs IO.Namespace IO.NamespaceProofs IO.Vw.
Import ListNotations.
Open Scope N_scope.

(* a word: label, namespace id or token.  Non-empty, no ' ' and no '|' inside, and it neither begins
   nor ends with a white-space character (str.strip() would eat it) *)
Definition word (w : str) : Prop :=
  w <> [] /\ none (fun c => (c =? SP) || (c =? BAR)) w /\ edge_clean w.

Definition wf_toks (toks : list (nat * str)) : Prop := Forall (fun gt => word (snd gt)) toks.
Definition wf_ns (ns : vw_ns) : Prop := word (ns_id ns) /\ wf_toks (ns_toks ns).
Definition wf_vw (l : vw_line) : Prop := word (vl_label l) /\ wf_toks (vl_extra l) /\ Forall wf_ns (vl_nss l).

Lemma word_no_sp w : word w -> none (N.eqb SP) w.
Proof. intros (_ & H & _). exact (cell_no_sep SP _ w H). Qed.

Lemma word_no_bar w : word w -> none (N.eqb BAR) w.
Proof. intros (_ & H & _). apply none_eqb_sym, (cell_no_other SP _ w H). Qed.

Lemma render_toks_cons g t toks : render_toks ((g, t) :: toks) = (SP :: repeat SP g ++ t) ++ render_toks toks.
Proof. reflexivity. Qed.

Lemma render_toks_no_bar toks : wf_toks toks -> none (N.eqb BAR) (render_toks toks).
Proof.
  induction toks as [|[g t] toks IH]; intros H; [reflexivity|]. inversion H as [|? ? Ht H']; subst.
  rewrite render_toks_cons. apply none_app. split; [|auto].
  apply none_cons. split; [reflexivity|]. apply none_app. split; [apply none_repeat; reflexivity|apply word_no_bar, Ht].
Qed.

Lemma render_toks_head toks k : render_toks toks ++ repeat SP k = [] \/ exists r, render_toks toks ++ repeat SP k = SP :: r.
Proof.
  destruct toks as [|[g t] toks].
  - destruct k; [left; reflexivity|right; eexists; reflexivity].
  - right. rewrite render_toks_cons. eexists. cbn [app]. reflexivity.
Qed.

Lemma render_toks_last toks : forall w, last_ok is_space w -> wf_toks toks -> last_ok is_space (w ++ render_toks toks).
Proof.
  induction toks as [|[g t] toks IH]; intros w Hl H.
  - cbn [render_toks flat_map]. rewrite app_nil_r. exact Hl.
  - inversion H as [|? ? (Htne & _ & _ & Htl) H']; subst. rewrite render_toks_cons, app_assoc. apply IH; [|exact H'].
    change (SP :: repeat SP g ++ t) with ((SP :: repeat SP g) ++ t). rewrite app_assoc. apply last_ok_app; assumption.
Qed.

Definition tok_pieces (toks : list (nat * str)) : list str := flat_map (fun gt => repeat [] (fst gt) ++ [snd gt]) toks.

Lemma tok_pieces_cons g t toks : tok_pieces ((g, t) :: toks) = (repeat [] g ++ [t]) ++ tok_pieces toks.
Proof. reflexivity. Qed.

Lemma split_toks toks : forall a, none (N.eqb SP) a -> wf_toks toks ->
  split_on SP (a ++ render_toks toks) = a :: tok_pieces toks.
Proof.
  induction toks as [|[g t] toks IH]; intros a Ha H.
  - cbn [render_toks flat_map tok_pieces]. rewrite app_nil_r. apply split_on_none, Ha.
  - inversion H as [|? ? Ht H']; subst. rewrite render_toks_cons. cbn [app].
    rewrite split_on_app by exact Ha. rewrite <- app_assoc, split_on_repeat.
    rewrite IH; [|apply word_no_sp, Ht|exact H']. rewrite tok_pieces_cons, <- app_assoc. reflexivity.
Qed.

Lemma filter_tok_pieces toks : wf_toks toks -> filter nonempty (tok_pieces toks) = map snd toks.
Proof.
  induction toks as [|[g t] toks IH]; intros H; [reflexivity|]. inversion H as [|? ? Ht H']; subst.
  rewrite tok_pieces_cons. rewrite !filter_app, IH by exact H'.
  assert (E : filter nonempty (repeat ([] : str) g) = []). { clear. induction g as [|g IHg]; [reflexivity|]. cbn. exact IHg. }
  rewrite E. destruct Ht as (Hne & _). cbn [snd] in Hne. destruct t; [congruence|]. reflexivity.
Qed.

(* ---------- a word followed by tokens: the label part and every namespace part ---------- *)

Lemma phrase_props w toks : word w -> wf_toks toks ->
  w ++ render_toks toks <> [] /\ edge_clean (w ++ render_toks toks) /\ none (N.eqb BAR) (w ++ render_toks toks).
Proof.
  intros Hw Ht. pose proof (word_no_bar w Hw) as Hb. destruct Hw as (Hne & _ & Hh & Hl).
  split; [|split; [split|]].
  - destruct w; [congruence|discriminate].
  - apply head_ok_app; assumption.
  - apply render_toks_last; assumption.
  - apply none_app. split; [exact Hb|apply render_toks_no_bar, Ht].
Qed.

Lemma vw_part_body ns w : wf_ns ns -> all is_space w -> vw_part (ns_body ns ++ w) = (ns_id ns, ns_joined ns).
Proof.
  intros Hwf Hw. unfold vw_part.
  assert (E : strip_ws (ns_body ns ++ w) = ns_body ns).
  { apply (strip_ws_pad [] (ns_body ns) w); [reflexivity|exact Hw|apply (phrase_props _ _ (proj1 Hwf) (proj2 Hwf))]. }
  rewrite E. unfold ns_body. destruct Hwf as [Hid Ht].
  rewrite split_toks; [|apply word_no_sp, Hid|exact Ht]. cbn [hd tl].
  rewrite filter_tok_pieces by exact Ht. reflexivity.
Qed.

Definition vw_assign1 (fw : dict) (ns : vw_ns) : list (str * str) :=
  match dict_get (ns_id ns) fw with Some f => [(f, ns_joined ns)] | None => [] end.

Lemma fold_vw_store fw parts nss : forall h,
  Forall2 (fun p ns => vw_part p = (ns_id ns, ns_joined ns)) parts nss ->
  fold_left (vw_store fw) parts h = fold_left assign (vw_assignments fw nss) h.
Proof.
  intros h H. revert h. induction H as [|p ns parts nss Hp H IH]; intros h; [reflexivity|].
  cbn [fold_left]. unfold vw_assignments. cbn [flat_map]. rewrite fold_left_app. fold (vw_assignments fw nss).
  rewrite IH. f_equal. unfold vw_store. rewrite Hp. destruct (dict_get (ns_id ns) fw); reflexivity.
Qed.

(* stripping the line removes the terminator and the white space after the last part, nothing else;
   splitting on '|' then gives the parts back *)
Lemma split_strip_line Q b w :
  Forall (none (N.eqb BAR)) (Q ++ [b]) -> all is_space w -> edge_clean (join_with [BAR] (Q ++ [b])) ->
  split_on BAR (strip_ws (join_with [BAR] (Q ++ [b ++ w]) ++ [LF])) = Q ++ [b].
Proof.
  intros HQ Hw He. destruct (join_last [BAR] Q) as [pre Hpre].
  assert (E : join_with [BAR] (Q ++ [b ++ w]) ++ [LF] = [] ++ (pre ++ b) ++ (w ++ [LF])).
  { rewrite Hpre. cbn [app]. rewrite <- !app_assoc. reflexivity. }
  rewrite E, strip_ws_pad.
  - rewrite <- Hpre. apply split_on_join; [destruct Q; discriminate|exact HQ].
  - reflexivity.
  - apply all_app. split; [exact Hw|reflexivity].
  - rewrite <- Hpre. exact He.
Qed.

Lemma label_of_head label rest :
  none (N.eqb SP) label -> (rest = [] \/ exists r, rest = SP :: r) -> hd [] (split_on SP (label ++ rest)) = label.
Proof.
  intros Hl [->|[r ->]].
  - rewrite app_nil_r, split_on_none by exact Hl. reflexivity.
  - rewrite split_on_app by exact Hl. reflexivity.
Qed.

Lemma render_ns_no_bar ns : wf_ns ns -> none (N.eqb BAR) (render_ns ns).
Proof.
  intros [Hid Ht]. unfold render_ns. apply none_app. split; [apply (phrase_props _ _ Hid Ht)|apply none_repeat; reflexivity].
Qed.

Lemma Forall2_map_self {A B} (f : A -> B) (P : B -> A -> Prop) l :
  Forall (fun a => P (f a) a) l -> Forall2 P (map f l) l.
Proof. induction 1; cbn [map]; constructor; assumption. Qed.

(* what the parser sees after strip + split: the head part (label, extras, maybe trailing blanks)
   and one part per namespace whose normal form is (id, joined tokens) *)
Lemma vw_parts l : wf_vw l ->
  exists k parts,
    split_on BAR (strip_ws (render_vw l)) = (vl_head l ++ repeat SP k) :: parts /\
    Forall2 (fun p ns => vw_part p = (ns_id ns, ns_joined ns)) parts (vl_nss l).
Proof.
  intros (Hlab & Hex & Hnss). destruct (phrase_props _ _ Hlab Hex) as (Hne & He & Hb). fold (vl_head l) in Hne, He, Hb.
  unfold render_vw. destruct (vl_nss l) as [|ns0 nss0].
  - (* no namespace part *)
    cbn [map].
    change [vl_head l ++ repeat SP (vl_trail l)] with ([] ++ [vl_head l ++ repeat SP (vl_trail l)]).
    rewrite split_strip_line; [|constructor; [exact Hb|constructor]|apply all_repeat; reflexivity|exact He].
    exists 0%nat, []. cbn [repeat app]. rewrite app_nil_r. split; [reflexivity|constructor].
  - (* the last namespace part is the one the line's strip() reaches *)
    destruct (@exists_last _ (ns0 :: nss0)) as [nss' [nsl E]]; [discriminate|]. rewrite E in *. clear E ns0 nss0.
    apply Forall_app in Hnss. destruct Hnss as [Hnss' Hnsl]. inversion Hnsl as [|? ? Hlast _]; subst.
    destruct (phrase_props _ _ (proj1 Hlast) (proj2 Hlast)) as (Hnel & Hel & Hbl). fold (ns_body nsl) in Hnel, Hel, Hbl.
    rewrite map_app. cbn [map]. unfold render_ns at 2. rewrite app_comm_cons. rewrite split_strip_line.
    + exists (vl_trail l), (map render_ns nss' ++ [ns_body nsl]). split; [reflexivity|].
      apply Forall2_app.
      * apply Forall2_map_self. eapply Forall_impl; [|exact Hnss']. intros ns Hns. unfold render_ns.
        apply vw_part_body; [exact Hns|apply all_repeat; reflexivity].
      * constructor; [|constructor]. rewrite <- (app_nil_r (ns_body nsl)). apply vw_part_body; [exact Hlast|reflexivity].
    + rewrite <- app_comm_cons. constructor.
      * apply none_app. split; [exact Hb|apply none_repeat; reflexivity].
      * apply Forall_app. split; [|constructor; [exact Hbl|constructor]].
        apply Forall_map. eapply Forall_impl; [|exact Hnss']. intros ns. apply render_ns_no_bar.
    + apply all_repeat. reflexivity.
    + rewrite <- app_comm_cons. apply edge_clean_join_ends; [|apply head_ok_app; [exact Hne|exact (proj1 He)]|exact Hnel|exact (proj2 Hel)].
      destruct (vl_head l); [congruence|discriminate].
Qed.

Theorem parse_vw_spec fw header l : wf_vw l ->
  parse_vw fw header (render_vw l) = Some (vl_label l) :: map (vw_cell fw (vl_nss l)) (tl header).
Proof.
  intros Hwf. destruct (vw_parts l Hwf) as (k & parts & Hsplit & HF2).
  unfold parse_vw. rewrite Hsplit. cbn [hd tl]. f_equal.
  - f_equal. unfold vl_head. rewrite <- app_assoc. apply label_of_head.
    + apply word_no_sp. exact (proj1 Hwf).
    + apply render_toks_head.
  - apply map_ext. intros el. unfold vw_cell. f_equal.
    rewrite (fold_vw_store fw parts (vl_nss l)) by exact HF2.
    rewrite dict_get_assignments. cbn [dict_get]. destruct (assoc_last el (vw_assignments fw (vl_nss l))); reflexivity.
Qed.

Lemma in_vw_assignments fw nss f v :
  In (f, v) (vw_assignments fw nss) <-> exists ns, In ns nss /\ dict_get (ns_id ns) fw = Some f /\ ns_joined ns = v.
Proof.
  unfold vw_assignments. rewrite in_flat_map. split.
  - intros [ns [Hin H]]. exists ns. split; [exact Hin|]. destruct (dict_get (ns_id ns) fw) as [f'|]; [|destruct H].
    destruct H as [H|[]]. inversion H; subst. split; reflexivity.
  - intros [ns (Hin & Hf & Hv)]. exists ns. split; [exact Hin|]. rewrite Hf. left. rewrite Hv. reflexivity.
Qed.

(* absent: no namespace of the line maps to the column -> missing *)
Theorem vw_cell_absent fw nss el :
  (forall ns, In ns nss -> dict_get (ns_id ns) fw <> Some el) -> vw_cell fw nss el = None.
Proof.
  intros H. unfold vw_cell. rewrite assoc_last_none; [reflexivity|].
  intros v Hin. apply in_vw_assignments in Hin. destruct Hin as [ns (Hin & Hf & _)]. exact (H ns Hin Hf).
Qed.

(* present: the only namespace of the line that maps to the column puts its joined tokens, minus two
   characters, there *)
Theorem vw_cell_present fw nss ns el :
  In ns nss -> dict_get (ns_id ns) fw = Some el ->
  (forall ns', In ns' nss -> dict_get (ns_id ns') fw = Some el -> ns' = ns) ->
  vw_cell fw nss el = Some (skipn 2 (ns_joined ns)).
Proof.
  intros Hin Hf Huniq. unfold vw_cell. rewrite (assoc_last_unique el (ns_joined ns)); [reflexivity| |].
  - apply in_vw_assignments. exists ns. auto.
  - intros v' H. apply in_vw_assignments in H. destruct H as (ns' & Hin' & Hf' & <-).
    rewrite (Huniq ns' Hin' Hf'). reflexivity.
Qed.

(* the reading of "without their two-character prefix": the code removes two characters from the JOINED
   string, so only the first token loses its prefix; later tokens keep theirs *)
Theorem vw_prefix_is_of_joined_string :
  (forall (t1 : list N) ts, (2 <= length t1)%nat -> ts <> [] ->
     skipn 2 (join_with [DASH] (t1 :: ts)) = skipn 2 t1 ++ [DASH] ++ join_with [DASH] ts) /\
  (exists fw header l, wf_vw l /\
     map snd (flat_map ns_toks (vl_nss l)) = [[99; 95; 120]; [99; 95; 121]] /\
     parse_vw fw header (render_vw l) = [Some [49]; Some [120; 45; 99; 95; 121]]).
Proof.
  split.
  - intros t1 ts H Hne. destruct ts as [|t2 ts]; [congruence|].
    change (join_with [DASH] (t1 :: t2 :: ts)) with (t1 ++ [DASH] ++ join_with [DASH] (t2 :: ts)).
    destruct t1 as [|a [|b t1]]; cbn [length] in H; try lia. reflexivity.
  - exists [([99], [102; 67])], [LABEL; [102; 67]],
           (mk_vw [49] [] 1 [mk_ns [99] [(0%nat, [99; 95; 120]); (0%nat, [99; 95; 121])] 0]).
    split; [|split; vm_compute; reflexivity].
    unfold wf_vw, wf_ns, wf_toks, word, edge_clean, last_ok. cbn.
    repeat split; try discriminate; repeat constructor; try discriminate.
Qed.

Example vw_nonvacuous :
  let fw : dict := [([97], [102; 65]); ([98], [102; 66]); ([99], [102; 67])] in
  let l := mk_vw [49] [(0%nat, [50; 46; 48])] 1
                 [mk_ns [99] [(0%nat, [99; 95; 120]); (1%nat, [99; 95; 121])] 1; mk_ns [97] [(0%nat, [97; 95; 233; 8364])] 0] in
  wf_vw l /\
  render_vw l = [49; 32; 50; 46; 48; 32; 124; 99; 32; 99; 95; 120; 32; 32; 99; 95; 121; 32; 124; 97; 32; 97; 95; 233; 8364; 10] /\
  parse_vw fw (vw_header fw) (render_vw l) = [Some [49]; Some [233; 8364]; None; Some [120; 45; 99; 95; 121]].
Proof.
  split; [|split; vm_compute; reflexivity].
  unfold wf_vw, wf_ns, wf_toks, word, edge_clean, last_ok. cbn.
  repeat split; try discriminate; repeat constructor; try discriminate.
Qed.
