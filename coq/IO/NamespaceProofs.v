(* C16 — dict lemmas and the namespace-map reader: mapping = last declaration per id (keys in order of
   first declaration), float set = features declared f32. *)
From Coq Require Import List NArith Bool.
From Outrank Require Import Common.ListFacts IO.Str IO.StrProofs IO.Tsv IO.TsvProofs IO.Namespace.
Import ListNotations.
Open Scope N_scope.

Lemma str_eqb_eq a : forall b, str_eqb a b = true <-> a = b.
Proof. exact (eqb_list_eq N.eqb N.eqb_eq a). Qed.

Lemma str_eqb_refl a : str_eqb a a = true.
Proof. apply str_eqb_eq. reflexivity. Qed.

Lemma str_eqb_neq a b : str_eqb a b = false <-> a <> b.
Proof. rewrite <- str_eqb_eq. symmetry. apply not_true_iff_false. Qed.

Lemma str_eqb_trans_l a b c : str_eqb a b = true -> str_eqb a c = str_eqb b c.
Proof. intros H. apply str_eqb_eq in H. subst. reflexivity. Qed.

Lemma dict_get_set k k' v d : dict_get k (dict_set k' v d) = if str_eqb k k' then Some v else dict_get k d.
Proof.
  induction d as [|[k0 v0] d IH]; cbn [dict_set dict_get].
  - reflexivity.
  - destruct (str_eqb k' k0) eqn:E; cbn [dict_get].
    + apply str_eqb_eq in E. subst k0. destruct (str_eqb k k'); reflexivity.
    + rewrite IH. destruct (str_eqb k k0) eqn:E0; [|reflexivity].
      apply str_eqb_eq in E0. subst k0. destruct (str_eqb k k') eqn:E1; [|reflexivity].
      apply str_eqb_eq in E1. subst k'. rewrite str_eqb_refl in E. discriminate.
Qed.

Definition assign (d : dict) (kv : str * str) : dict := dict_set (fst kv) (snd kv) d.

Lemma dict_get_assignments k kvs : forall d0,
  dict_get k (fold_left assign kvs d0) =
  match assoc_last k kvs with Some x => Some x | None => dict_get k d0 end.
Proof.
  induction kvs as [|[k' v] kvs IH]; intros d0; [reflexivity|].
  cbn [fold_left assoc_last]. rewrite IH. destruct (assoc_last k kvs); [reflexivity|].
  unfold assign. cbn [fst snd]. rewrite dict_get_set. destruct (str_eqb k k'); reflexivity.
Qed.

Lemma assoc_last_none k kvs : (forall v, ~ In (k, v) kvs) -> assoc_last k kvs = None.
Proof.
  induction kvs as [|[k' v] kvs IH]; intros H; [reflexivity|]. cbn [assoc_last].
  rewrite IH by (intros v' Hin; apply (H v'); right; exact Hin).
  destruct (str_eqb k k') eqn:E; [|reflexivity]. apply str_eqb_eq in E. subst k'. exfalso. apply (H v). left. reflexivity.
Qed.

Lemma assoc_last_in k kvs x : assoc_last k kvs = Some x -> In (k, x) kvs.
Proof.
  induction kvs as [|[k' v] kvs IH]; [discriminate|]. cbn [assoc_last].
  destruct (assoc_last k kvs) as [y|].
  - intros E. right. apply IH. exact E.
  - destruct (str_eqb k k') eqn:Ek; [|discriminate]. apply str_eqb_eq in Ek. intros E. inversion E; subst. left. reflexivity.
Qed.

Lemma assoc_last_unique k v kvs : In (k, v) kvs -> (forall v', In (k, v') kvs -> v' = v) -> assoc_last k kvs = Some v.
Proof.
  induction kvs as [|[k' w] kvs IH]; intros Hin Hu; [contradiction|]. cbn [assoc_last].
  destruct Hin as [Heq|Hin].
  - inversion Heq; subst. destruct (assoc_last k kvs) as [x|] eqn:E.
    + f_equal. apply Hu. right. apply assoc_last_in, E.
    + rewrite str_eqb_refl. reflexivity.
  - rewrite IH; [reflexivity|exact Hin|]. intros v' H. apply Hu. right. exact H.
Qed.

Lemma dict_keys_set k v d : dict_keys (dict_set k v d) = set_add k (dict_keys d).
Proof.
  unfold dict_keys, set_add, set_mem. induction d as [|[k0 v0] d IH]; cbn [dict_set map fst existsb app]; [reflexivity|].
  destruct (str_eqb k k0) eqn:E; cbn [map fst orb]; [reflexivity|].
  rewrite IH. destruct (existsb (str_eqb k) (map fst d)); reflexivity.
Qed.

Lemma dict_keys_assignments kvs : forall d0,
  dict_keys (fold_left assign kvs d0) = fold_left (fun acc k => set_add k acc) (map fst kvs) (dict_keys d0).
Proof.
  induction kvs as [|[k v] kvs IH]; intros d0; [reflexivity|].
  cbn [fold_left map fst]. rewrite IH. unfold assign. cbn [fst snd]. rewrite dict_keys_set. reflexivity.
Qed.

Lemma set_mem_In x s : set_mem x s = true <-> In x s.
Proof. apply (existsb_eqb_In str_eqb str_eqb_eq). Qed.

Lemma set_add_In f x s : In f (set_add x s) <-> f = x \/ In f s.
Proof.
  unfold set_add. destruct (set_mem x s) eqn:E.
  - apply set_mem_In in E. split; [auto|]. intros [->|H]; assumption.
  - rewrite in_app_iff. cbn [In]. split; [intros [H|[H|[]]]; auto | intros [H|H]; auto].
Qed.

Lemma set_add_NoDup x s : NoDup s -> NoDup (set_add x s).
Proof.
  intros H. unfold set_add. destruct (set_mem x s) eqn:E; [exact H|].
  apply (NoDup_Add (Add_app x s [])). rewrite app_nil_r. split; [exact H|].
  intros Hin. apply set_mem_In in Hin. congruence.
Qed.

Definition ns_field (f : str) : Prop := none (fun c => (c =? COMMA) || is_nl c) f.

(* a declaration line as the reader accepts it: fields without comma / line break, the written line
   neither starts nor ends with white space, and a two-field declaration has no underscore in its id *)
Definition wf_decl (d : decl) : Prop :=
  Forall ns_field (decl_fields d) /\
  edge_clean (join_with [COMMA] (decl_fields d)) /\
  (d_ty d = None -> mem USCORE (d_id d) = false).

Definition apply_decl (st : list str * dict) (d : decl) : list str * dict :=
  (match d_ty d with
   | Some ty => if str_eqb ty F32 then set_add (d_feat d) (fst st) else fst st
   | None => fst st
   end,
   dict_set (d_id d) (d_feat d) (snd st)).

(* what line.strip().split(',') makes of a written declaration line *)
Lemma decl_line_fields fields :
  fields <> [] -> Forall ns_field fields -> edge_clean (join_with [COMMA] fields) ->
  split_on COMMA (strip_ws (join_with [COMMA] fields ++ [LF])) = fields.
Proof.
  intros Hne HF He. apply split_strip_join; [exact Hne| |exact He].
  eapply Forall_impl; [|exact HF]. intros f. apply cell_no_sep.
Qed.

Theorem ns_step_render st d : wf_decl d -> ns_step st (render_decl d) = apply_decl st d.
Proof.
  intros (HF & Hedge & Hus). unfold ns_step, render_decl.
  rewrite decl_line_fields; [|destruct d as [[id feat] [ty|]]; discriminate|exact HF|exact Hedge].
  destruct d as [[id feat] [ty|]]; unfold decl_fields, apply_decl, d_ty, d_id, d_feat; cbn [fst snd].
  - reflexivity.
  - unfold d_ty, d_id in Hus. cbn [fst snd] in Hus. rewrite (Hus eq_refl). reflexivity.
Qed.

(* the quirk: a two-field declaration whose id contains an underscore is skipped silently *)
Theorem ns_step_underscore_skipped st id feat :
  Forall ns_field [id; feat] -> edge_clean (join_with [COMMA] [id; feat]) -> mem USCORE id = true ->
  ns_step st (render_decl (id, feat, None)) = st.
Proof.
  intros HF Hedge Hus. unfold ns_step, render_decl, decl_fields, d_ty, d_id, d_feat. cbn [fst snd].
  rewrite decl_line_fields; [|discriminate|exact HF|exact Hedge]. rewrite Hus. reflexivity.
Qed.

Theorem ns_step_other_counts st line :
  length (split_on COMMA (strip_ws line)) <> 2%nat -> length (split_on COMMA (strip_ws line)) <> 3%nat ->
  ns_step st line = st.
Proof.
  unfold ns_step. destruct (split_on COMMA (strip_ws line)) as [|a [|b [|c [|e r]]]]; cbn [length]; intros H2 H3;
    try reflexivity; congruence.
Qed.

Lemma fold_ns_render decls : forall st, Forall wf_decl decls ->
  fold_left ns_step (map render_decl decls) st = fold_left apply_decl decls st.
Proof.
  induction decls as [|d decls IH]; intros st HF; [reflexivity|].
  inversion HF as [|? ? Hd HF']; subst. cbn [map fold_left]. rewrite ns_step_render by exact Hd. apply IH, HF'.
Qed.

Definition decl_kv (d : decl) : str * str := (d_id d, d_feat d).
Definition declares_f32 (decls : list decl) (f : str) : Prop :=
  exists d, In d decls /\ d_feat d = f /\ d_ty d = Some F32.

Lemma fold_apply_snd decls : forall st,
  snd (fold_left apply_decl decls st) = fold_left assign (map decl_kv decls) (snd st).
Proof. induction decls as [|d decls IH]; intros st; [reflexivity|]. cbn [fold_left map]. rewrite IH. reflexivity. Qed.

Lemma fold_apply_fst decls : forall st f,
  In f (fst (fold_left apply_decl decls st)) <-> In f (fst st) \/ declares_f32 decls f.
Proof.
  induction decls as [|d decls IH]; intros st f.
  - cbn [fold_left]. split; [auto|]. intros [H|[d [[] _]]]. exact H.
  - cbn [fold_left]. rewrite IH. unfold apply_decl at 1. cbn [fst]. split.
    + intros [H|[d' (Hin & Hf & Hty)]].
      * destruct (d_ty d) as [ty|] eqn:Ety; [|left; exact H].
        destruct (str_eqb ty F32) eqn:E; [|left; exact H].
        apply set_add_In in H. destruct H as [->|H]; [|left; exact H].
        right. exists d. apply str_eqb_eq in E. subst ty. split; [left; reflexivity|]. split; [reflexivity|exact Ety].
      * right. exists d'. split; [right; exact Hin|]. split; assumption.
    + intros [H|[d' ([->|Hin] & Hf & Hty)]].
      * left. destruct (d_ty d) as [ty|]; [|exact H]. destruct (str_eqb ty F32); [|exact H]. apply set_add_In. right. exact H.
      * left. rewrite Hty. rewrite str_eqb_refl. apply set_add_In. left. symmetry. exact Hf.
      * right. exists d'. split; [exact Hin|]. split; assumption.
Qed.

Lemma fold_apply_NoDup decls : forall st, NoDup (fst st) -> NoDup (fst (fold_left apply_decl decls st)).
Proof.
  induction decls as [|d decls IH]; intros st H; [exact H|]. cbn [fold_left]. apply IH.
  unfold apply_decl. cbn [fst]. destruct (d_ty d) as [ty|]; [|exact H]. destruct (str_eqb ty F32); [|exact H].
  apply set_add_NoDup, H.
Qed.

Lemma render_decl_lines decls : Forall wf_decl decls ->
  phys_lines (concat (map render_decl decls)) = map render_decl decls.
Proof.
  (* a declaration line is a comma-separated line in the sense of IO/Tsv.v *)
  intros HF. change (map render_decl decls) with (map (fun d => render_tsv COMMA (decl_fields d)) decls).
  rewrite <- (map_map decl_fields (render_tsv COMMA)). apply tsv_one_physical_line; [reflexivity|].
  apply Forall_map. eapply Forall_impl; [|exact HF]. intros d Hd. exact (proj1 Hd).
Qed.

Theorem parse_namespace_spec decls : Forall wf_decl decls ->
  let r := parse_namespace (concat (map render_decl decls)) in
  (forall id, dict_get id (snd r) = assoc_last id (map decl_kv decls)) /\
  dict_keys (snd r) = keys_first (map d_id decls) /\
  (forall f, In f (fst r) <-> declares_f32 decls f) /\
  NoDup (fst r).
Proof.
  intros HF. cbv zeta. unfold parse_namespace, parse_namespace_lines.
  rewrite render_decl_lines by exact HF. rewrite fold_ns_render by exact HF.
  split; [|split; [|split]].
  - intros id. rewrite fold_apply_snd, dict_get_assignments. cbn [snd dict_get].
    destruct (assoc_last id (map decl_kv decls)); reflexivity.
  - rewrite fold_apply_snd, dict_keys_assignments. cbn [snd dict_keys map]. unfold keys_first.
    rewrite map_map. reflexivity.
  - intros f. rewrite fold_apply_fst. cbn [fst In]. tauto.
  - apply fold_apply_NoDup. constructor.
Qed.

(* simple sufficient condition for the edge condition of wf_decl *)
Lemma edge_clean_join a fields z :
  a <> [] -> head_ok is_space a -> z <> [] -> last_ok is_space z ->
  edge_clean (join_with [COMMA] (a :: fields ++ [z])).
Proof.
  apply edge_clean_join_ends.
Qed.

Example namespace_nonvacuous :
  let decls : list decl :=
    [([97], [102; 49], Some F32); ([98], [102; 50], None); ([97], [102; 51], Some [105; 51; 50]); ([99; 95; 49], [102; 50], Some F32)] in
  Forall wf_decl decls /\
  parse_namespace (concat (map render_decl decls)) =
    ([[102; 49]; [102; 50]], [([97], [102; 51]); ([98], [102; 50]); ([99; 95; 49], [102; 50])]).
Proof.
  split.
  - repeat constructor; try discriminate.
  - vm_compute. reflexivity.
Qed.
