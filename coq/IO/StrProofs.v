(* C16 — lemmas about the string operations of IO/Str.v (split / join / strip / physical lines). *)
From Coq Require Import List NArith Bool.
From Outrank Require Import IO.Str.
From Outrank Require Common.Split.
Import ListNotations.
Open Scope N_scope.

Lemma frev_rev {A} (l : list A) : frev l = rev l.
Proof. unfold frev. symmetry. apply rev_alt. Qed.

(* no character of [l] satisfies [p] *)
Definition none (p : ch -> bool) (l : str) : Prop := forallb (fun c => negb (p c)) l = true.
Definition all (p : ch -> bool) (l : str) : Prop := forallb p l = true.
Definition head_ok (p : ch -> bool) (l : str) : Prop := match l with [] => True | c :: _ => p c = false end.
Definition last_ok (p : ch -> bool) (l : str) : Prop := head_ok p (rev l).
(* first and last character are not white space: s.strip() == s *)
Definition edge_clean (l : str) : Prop := head_ok is_space l /\ last_ok is_space l.

Lemma none_cons p c l : none p (c :: l) <-> p c = false /\ none p l.
Proof. unfold none. cbn [forallb]. rewrite andb_true_iff, negb_true_iff. tauto. Qed.

Lemma all_app p a b : all p (a ++ b) <-> all p a /\ all p b.
Proof. unfold all. rewrite forallb_app, andb_true_iff. tauto. Qed.

Lemma all_rev p l : all p l -> all p (rev l).
Proof. unfold all. rewrite !forallb_forall. intros H c Hc. apply H, in_rev, Hc. Qed.

Lemma all_repeat p c n : p c = true -> all p (repeat c n).
Proof. intros H. unfold all. induction n; cbn; [reflexivity|]. rewrite H. assumption. Qed.

(* [none p] is [all] of the complement, so it inherits the lemmas of [all] *)
Lemma none_app p a b : none p (a ++ b) <-> none p a /\ none p b.
Proof. apply all_app. Qed.

Lemma none_rev p l : none p l -> none p (rev l).
Proof. apply all_rev. Qed.

Lemma none_repeat p c n : p c = false -> none p (repeat c n).
Proof. intros H. apply all_repeat. rewrite H. reflexivity. Qed.


Lemma none_head_ok p l : none p l -> head_ok p l.
Proof. destruct l as [|c l]; [exact (fun _ => I)|]. intros H. apply none_cons in H. exact (proj1 H). Qed.

Lemma none_last_ok p l : none p l -> last_ok p l.
Proof. intros H. apply none_head_ok, none_rev, H. Qed.

Lemma none_orb p q l : none (fun x => p x || q x) l <-> none p l /\ none q l.
Proof.
  induction l as [|c l IH]; [split; [split|]; reflexivity|].
  rewrite !none_cons, IH, orb_false_iff. tauto.
Qed.

Lemma none_eqb_sym d l : none (fun x => x =? d) l <-> none (N.eqb d) l.
Proof. induction l as [|c l IH]; [tauto|]. rewrite !none_cons, IH, (N.eqb_sym c d). tauto. Qed.

(* a field of a line whose fields are separated by [d] contains neither [d] (so splitting on [d] leaves it whole)
   nor what else [q] excludes (line breaks; for VW words, the other separator) *)
Lemma cell_no_sep d q c : none (fun x => (x =? d) || q x) c -> none (N.eqb d) c.
Proof. intros H. apply none_eqb_sym, (none_orb _ q c), H. Qed.

Lemma cell_no_other d q c : none (fun x => (x =? d) || q x) c -> none q c.
Proof. intros H. apply (none_orb (fun x => x =? d) q c), H. Qed.

Lemma head_ok_app p a b : a <> [] -> head_ok p a -> head_ok p (a ++ b).
Proof. destruct a as [|c a]; [congruence|]. intros _ H. exact H. Qed.

Lemma last_ok_app p a b : b <> [] -> last_ok p b -> last_ok p (a ++ b).
Proof.
  unfold last_ok. intros Hne H. rewrite rev_app_distr. apply head_ok_app; [|exact H].
  intros E. apply Hne. rewrite <- (rev_involutive b), E. reflexivity.
Qed.

Lemma last_ok_app_nil p a : last_ok p a -> last_ok p (a ++ []).
Proof. rewrite app_nil_r. exact (fun H => H). Qed.

Lemma drop_while_all p w l : all p w -> drop_while p (w ++ l) = drop_while p l.
Proof.
  unfold all. induction w as [|c w IH]; intros H; [reflexivity|]. cbn [forallb] in H. apply andb_true_iff in H.
  destruct H as [Hc Hw]. cbn [app drop_while]. rewrite Hc. auto.
Qed.

Lemma drop_while_head_ok p l : head_ok p l -> drop_while p l = l.
Proof. destruct l as [|c l]; [reflexivity|]. cbn [head_ok drop_while]. intros ->. reflexivity. Qed.

Lemma rstrip_app p l w : all p w -> last_ok p l -> rstrip p (l ++ w) = l.
Proof.
  intros Hw Hl. unfold rstrip. rewrite !frev_rev, rev_app_distr, drop_while_all by (apply all_rev, Hw).
  rewrite drop_while_head_ok by exact Hl. apply rev_involutive.
Qed.

Lemma lstrip_app p l w : all p w -> head_ok p l -> lstrip p (w ++ l) = l.
Proof. intros Hw Hl. unfold lstrip. rewrite drop_while_all by exact Hw. apply drop_while_head_ok, Hl. Qed.

(* s.strip() removes surrounding white space and nothing else *)
Lemma strip_ws_pad w1 l w2 : all is_space w1 -> all is_space w2 -> edge_clean l -> strip_ws (w1 ++ l ++ w2) = l.
Proof.
  intros H1 H2 [Hh Hl]. unfold strip_ws. destruct l as [|c l'].
  - cbn [app]. unfold lstrip. rewrite drop_while_all by exact H1.
    assert (E : drop_while is_space w2 = []).
    { rewrite <- (app_nil_r w2). rewrite drop_while_all by exact H2. reflexivity. }
    rewrite E. reflexivity.
  - rewrite lstrip_app; [| exact H1 | exact Hh]. apply rstrip_app; assumption.
Qed.

Lemma strip_ws_lf l : edge_clean l -> strip_ws (l ++ [LF]) = l.
Proof. intros H. apply (strip_ws_pad [] l [LF]); [reflexivity|reflexivity|exact H]. Qed.

Lemma is_space_LF : is_space LF = true. Proof. reflexivity. Qed.
Lemma is_space_SP : is_space SP = true. Proof. reflexivity. Qed.
Lemma is_space_nl c : is_nl c = true -> is_space c = true.
Proof.
  unfold is_nl. intros H. apply orb_true_iff in H. destruct H as [H|H]; apply N.eqb_eq in H; subst; reflexivity.
Qed.

(* [split_on] is Common/Split.v's; there the pieces are described by [~ In sep w] *)
Lemma none_eqb_notin sep a : none (N.eqb sep) a <-> ~ In sep a.
Proof.
  unfold none. rewrite forallb_forall. split.
  - intros H I. specialize (H _ I). rewrite N.eqb_refl in H. discriminate.
  - intros H c I. apply negb_true_iff, N.eqb_neq. intros ->. exact (H I).
Qed.

Lemma split_on_ne sep l : split_on sep l <> [].
Proof. exact (Split.split_on_nonnil sep l). Qed.

Lemma split_on_none sep a : none (N.eqb sep) a -> split_on sep a = [a].
Proof. intros H. apply Split.split_on_word, none_eqb_notin, H. Qed.

(* a piece without separator, then the separator, then the rest *)
Lemma split_on_app sep a r : none (N.eqb sep) a -> split_on sep (a ++ sep :: r) = a :: split_on sep r.
Proof. intros H. apply Split.split_on_app, none_eqb_notin, H. Qed.

Lemma split_on_repeat sep g x : split_on sep (repeat sep g ++ x) = repeat [] g ++ split_on sep x.
Proof. induction g as [|g IH]; [reflexivity|]. cbn [repeat app split_on]. rewrite N.eqb_refl, IH. reflexivity. Qed.

Lemma join_with_cons sep x y r : join_with sep (x :: y :: r) = x ++ sep ++ join_with sep (y :: r).
Proof. reflexivity. Qed.

Lemma join_with_sep sep cells : join_with [sep] cells = Split.join_sep sep cells.
Proof.
  induction cells as [|x cells IH]; [reflexivity|]. destruct cells as [|y r]; [reflexivity|].
  rewrite join_with_cons, Split.join_sep_cons, IH. reflexivity.
Qed.

Theorem split_on_join sep cells : cells <> [] -> Forall (none (N.eqb sep)) cells ->
  split_on sep (join_with [sep] cells) = cells.
Proof.
  intros Hne HF. rewrite join_with_sep. apply Split.split_join; [exact Hne|].
  rewrite Forall_forall in HF. intros w Hw. apply none_eqb_notin, HF, Hw.
Qed.

Lemma none_join p sep cells : none p sep -> Forall (none p) cells -> none p (join_with sep cells).
Proof.
  intros Hs. induction cells as [|c cells IH]; intros HF; [reflexivity|].
  inversion HF as [|? ? Hc HF']; subst. destruct cells as [|d cells']; [exact Hc|].
  rewrite join_with_cons. apply none_app; split; [exact Hc|]. apply none_app; split; [exact Hs|]. apply IH, HF'.
Qed.

Lemma join_head (sep : str) x rest : exists r, join_with sep (x :: rest) = x ++ r.
Proof. destruct rest as [|y rest]; [exists []; cbn; rewrite app_nil_r; reflexivity|]. eexists. apply join_with_cons. Qed.

Lemma join_last (sep : str) Q : exists pre, forall y, join_with sep (Q ++ [y]) = pre ++ y.
Proof.
  destruct Q as [|x P]; [exists []; reflexivity|]. revert x.
  induction P as [|p P IH]; intros x.
  - exists (x ++ sep). intros y. cbn [app join_with]. rewrite <- app_assoc. reflexivity.
  - destruct (IH p) as [pre Hpre]. exists (x ++ sep ++ pre). intros y.
    cbn [app]. rewrite join_with_cons. cbn [app] in Hpre. rewrite Hpre, <- !app_assoc. reflexivity.
Qed.

(* line.strip().split(sep) on a written line gives the fields back *)
Lemma edge_clean_join_ends (sep : str) a mid z :
  a <> [] -> head_ok is_space a -> z <> [] -> last_ok is_space z -> edge_clean (join_with sep (a :: mid ++ [z])).
Proof.
  intros Ha Hha Hz Hlz. split.
  - destruct (join_head sep a (mid ++ [z])) as [r ->]. apply head_ok_app; assumption.
  - destruct (join_last sep (a :: mid)) as [pre Hpre]. rewrite app_comm_cons, Hpre. apply last_ok_app; assumption.
Qed.

Lemma split_strip_join sep cells : cells <> [] -> Forall (none (N.eqb sep)) cells ->
  edge_clean (join_with [sep] cells) -> split_on sep (strip_ws (join_with [sep] cells ++ [LF])) = cells.
Proof. intros Hne HF He. rewrite strip_ws_lf by exact He. apply split_on_join; assumption. Qed.

Lemma phys_lines_aux_line l : forall cur rest, none is_nl l ->
  phys_lines_aux cur (l ++ LF :: rest) = (rev cur ++ l ++ [LF]) :: phys_lines_aux [] rest.
Proof.
  induction l as [|c l IH]; intros cur rest H.
  - cbn [app phys_lines_aux]. rewrite N.eqb_refl, frev_rev. cbn [rev]. reflexivity.
  - apply none_cons in H. destruct H as [Hc Hl]. unfold is_nl in Hc. apply orb_false_iff in Hc.
    destruct Hc as [H1 H2]. cbn [app phys_lines_aux]. rewrite H1, H2, IH by exact Hl.
    cbn [rev]. rewrite <- app_assoc. reflexivity.
Qed.

Lemma phys_lines_cons l rest : none is_nl l -> phys_lines (l ++ LF :: rest) = (l ++ [LF]) :: phys_lines rest.
Proof. intros H. unfold phys_lines. rewrite phys_lines_aux_line by exact H. reflexivity. Qed.

(* a text made of lines without inner line breaks, each terminated by LF, is read back line by line *)
Theorem phys_lines_concat ls : Forall (none is_nl) ls ->
  phys_lines (concat (map (fun l => l ++ [LF]) ls)) = map (fun l => l ++ [LF]) ls.
Proof.
  induction ls as [|l ls IH]; intros HF; [reflexivity|].
  inversion HF as [|? ? Hl HF']; subst. cbn [map concat]. rewrite <- app_assoc. cbn [app].
  rewrite phys_lines_cons by exact Hl. rewrite IH by exact HF'. reflexivity.
Qed.
