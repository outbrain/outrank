(* C16 — the field-count validity test: a line is accepted as a whole or rejected as a whole, and a
   well-formed file goes through the loop row by row. *)
From Coq Require Import List NArith Lia Arith.
From Outrank Require Import Common.ListFacts IO.Str IO.StrProofs IO.Csv IO.CsvProofs IO.Tsv IO.TsvProofs IO.Namespace IO.Vw IO.Accept.
Import ListNotations.
Open Scope N_scope.

Lemma accept_iff ncols r : accept ncols r = true <-> length r = ncols.
Proof. unfold accept. apply Nat.eqb_eq. Qed.

Theorem accept_step_spec ncols s r :
  (length r = ncols ->
     accept_step ncols s r = mk_l (buf s ++ [r]) (emitted s) (invalid s) (crashed s)) /\
  (length r <> ncols ->
     accept_step ncols s r = mk_l (buf s) (emitted s) (invalid s + 1) (crashed s)).
Proof.
  unfold accept_step. split; intros H.
  - apply accept_iff in H. rewrite H. reflexivity.
  - destruct (accept ncols r) eqn:E; [apply accept_iff in E; contradiction|reflexivity].
Qed.

Lemma flush_accepted bsize s : accepted_rows (flush bsize s) = accepted_rows s.
Proof.
  unfold flush, accepted_rows. destruct (Nat.leb bsize (length (buf s))); [|reflexivity].
  cbn [emitted buf]. rewrite concat_app. cbn [concat]. rewrite !app_nil_r. reflexivity.
Qed.
Lemma flush_invalid bsize s : invalid (flush bsize s) = invalid s.
Proof. unfold flush. destruct (Nat.leb bsize (length (buf s))); reflexivity. Qed.
Lemma flush_crashed bsize s : crashed (flush bsize s) = crashed s.
Proof. unfold flush. destruct (Nat.leb bsize (length (buf s))); reflexivity. Qed.

Lemma accept_step_accepted ncols s r :
  accepted_rows (accept_step ncols s r) = accepted_rows s ++ filter (accept ncols) [r].
Proof.
  unfold accept_step, accepted_rows. cbn [filter]. destruct (accept ncols r); cbn [emitted buf].
  - apply app_assoc.
  - rewrite app_nil_r. reflexivity.
Qed.
Lemma accept_step_invalid ncols s r :
  invalid (accept_step ncols s r) = invalid s + N.of_nat (length (filter (fun r => negb (accept ncols r)) [r])).
Proof. unfold accept_step. cbn [filter]. destruct (accept ncols r); cbn [invalid negb length]; lia. Qed.
Lemma accept_step_crashed ncols s r : crashed (accept_step ncols s r) = crashed s.
Proof. unfold accept_step. destruct (accept ncols r); reflexivity. Qed.

Definition rejected (ncols : nat) (rows : list row) : list row := filter (fun r => negb (accept ncols r)) rows.

(* over lines that all parse: the rows handed to the mini-batches are exactly the rows with the header's
   field count, unmodified and in order; every other line increases the invalid counter by one *)
Theorem loop_rows parser ncols bsize lines : forall rows s,
  map parser lines = map Row rows -> crashed s = false ->
  let s' := fold_left (loop_step parser ncols bsize) lines s in
  accepted_rows s' = accepted_rows s ++ filter (accept ncols) rows /\
  invalid s' = invalid s + N.of_nat (length (rejected ncols rows)) /\
  crashed s' = false.
Proof.
  induction lines as [|l lines IH]; intros rows s Hmap Hc; cbv zeta.
  - destruct rows; [|discriminate]. cbn. rewrite app_nil_r, N.add_0_r. auto.
  - destruct rows as [|r rows]; [discriminate|]. cbn [map] in Hmap. inversion Hmap as [[Hl Hrest]].
    cbn [fold_left].
    assert (E : loop_step parser ncols bsize s l = flush bsize (accept_step ncols s r)).
    { unfold loop_step. rewrite Hc, Hl. reflexivity. }
    rewrite E. set (s1 := flush bsize (accept_step ncols s r)).
    assert (Hc1 : crashed s1 = false).
    { unfold s1. rewrite flush_crashed, accept_step_crashed. exact Hc. }
    destruct (IH rows s1 Hrest Hc1) as (Ha & Hi & Hcr). cbv zeta in Ha, Hi, Hcr.
    rewrite Ha, Hi, Hcr. unfold s1. rewrite flush_accepted, flush_invalid, accept_step_accepted, accept_step_invalid.
    change (r :: rows) with ([r] ++ rows). unfold rejected. rewrite !filter_app, app_length, <- app_assoc.
    split; [reflexivity|]. split; [lia|reflexivity].
Qed.

(* what is dropped: after the last line the code processes the first bsize rows of the remainder when
   more than 2**10 rows remain, and nothing of it otherwise *)
Definition dropped_tail (bsize : nat) (s : lstate) : list row :=
  if 1024 <? N.of_nat (length (buf s)) then skipn bsize (buf s) else buf s.

(* rows that reach a processed mini-batch = accepted rows minus the dropped tail *)
Theorem batches_seen_spec bsize s : crashed s = false ->
  concat (batches_seen bsize s) ++ dropped_tail bsize s = accepted_rows s.
Proof.
  intros Hc. unfold batches_seen, dropped_tail, accepted_rows. rewrite Hc.
  destruct (1024 <? N.of_nat (length (buf s))).
  - rewrite concat_app. cbn [concat]. rewrite app_nil_r, <- app_assoc, firstn_skipn. reflexivity.
  - reflexivity.
Qed.

(* a file: header line, then one written line per record; every written line is one physical line and is
   parsed to the cells of its record, whose number is [len r] *)
Lemma stream_rows {A} (render : A -> str) (cells : A -> row) (len : A -> nat) parser ncols bsize hline (rows : list A) :
  none is_nl hline ->
  phys_lines (concat (map render rows)) = map render rows ->
  (forall r, In r rows -> parser (render r) = Row (cells r)) ->
  (forall r, length (cells r) = len r) ->
  let s := run_loop parser ncols bsize (hline ++ LF :: concat (map render rows)) in
  accepted_rows s = map cells (filter (fun r => Nat.eqb (len r) ncols) rows) /\
  invalid s = N.of_nat (length (filter (fun r => negb (Nat.eqb (len r) ncols)) rows)) /\
  crashed s = false.
Proof.
  intros Hh Hlines Hparse Hlen. cbv zeta. unfold run_loop. rewrite phys_lines_cons by exact Hh. cbn [tl]. rewrite Hlines.
  assert (Hmap : map parser (map render rows) = map Row (map cells rows)).
  { rewrite !map_map. apply map_ext_in. exact Hparse. }
  destruct (loop_rows _ ncols bsize _ _ loop_init Hmap eq_refl) as (Ha & Hi & Hc). cbv zeta in Ha, Hi, Hc.
  rewrite Ha, Hi, Hc. unfold rejected. rewrite !filter_map_comm, map_length.
  assert (E : forall r, accept ncols (cells r) = Nat.eqb (len r) ncols) by (intros r; unfold accept; rewrite Hlen; reflexivity).
  rewrite (filter_ext _ _ E), (filter_ext _ (fun r => negb (Nat.eqb (len r) ncols)) (fun r => f_equal negb (E r))).
  cbn [accepted_rows loop_init emitted buf concat app invalid]. rewrite N.add_0_l. auto.
Qed.

(* a csv file: header line, then writer-style records (any field may be quoted), cells without line
   breaks and within the reader's field size limit *)
Theorem stream_csv src delim fw hdr bsize hline rows :
  src = CsvRaw \/ src = ObCsv -> none is_nl hline ->
  Forall (fun r => r <> [] /\ Forall (none is_nl) (map snd r) /\ Forall flen_ok (map snd r)) rows ->
  let text := hline ++ LF :: concat (map (fun r => Csv.render_q r ++ [LF]) rows) in
  let s := run_loop (generic_line_parser src delim fw hdr) (length hdr) bsize text in
  accepted_rows s = map (fun r => map Some (map snd r)) (filter (fun r => Nat.eqb (length r) (length hdr)) rows) /\
  invalid s = N.of_nat (length (filter (fun r => negb (Nat.eqb (length r) (length hdr))) rows)) /\
  crashed s = false.
Proof.
  intros Hsrc Hh HF. apply (stream_rows (fun r => Csv.render_q r ++ [LF]) (fun r => map Some (map snd r)) (@length _)).
  - exact Hh.
  - apply csv_physical_lines_q. eapply Forall_impl; [|exact HF]. intros r (_ & H & _). exact H.
  - intros r Hin. rewrite Forall_forall in HF. destruct (HF r Hin) as (Hne & _ & Hl).
    unfold generic_line_parser. destruct Hsrc as [-> | ->]; rewrite roundtrip_q_term by (auto); reflexivity.
  - intros r. rewrite !map_length. reflexivity.
Qed.

Theorem stream_tsv delim fw hdr bsize hline rows :
  is_nl delim = false -> none is_nl hline ->
  Forall (fun r => r <> [] /\ Forall (tsv_cell delim) r) rows ->
  let text := hline ++ LF :: concat (map (render_tsv delim) rows) in
  let s := run_loop (generic_line_parser ObRawDump delim fw hdr) (length hdr) bsize text in
  accepted_rows s = map (map Some) (filter (fun r => Nat.eqb (length r) (length hdr)) rows) /\
  invalid s = N.of_nat (length (filter (fun r => negb (Nat.eqb (length r) (length hdr))) rows)) /\
  crashed s = false.
Proof.
  intros Hd Hh HF. apply (stream_rows (render_tsv delim) (map Some) (@length _)).
  - exact Hh.
  - apply tsv_one_physical_line; [exact Hd|]. eapply Forall_impl; [|exact HF]. intros r [_ H]. exact H.
  - intros r Hin. rewrite Forall_forall in HF. destruct (HF r Hin) as [Hne Hc].
    unfold generic_line_parser, render_tsv. rewrite tsv_roundtrip_term; [reflexivity|exact Hd|reflexivity|exact Hne|exact Hc].
  - intros r. apply map_length.
Qed.

(* every VW row has the header's length: the validity test never rejects an ob-vw line *)
Theorem vw_row_length fw header line : header <> [] -> length (parse_vw fw header line) = length header.
Proof. intros H. unfold parse_vw. cbn [length]. rewrite map_length. destruct header; [congruence|reflexivity]. Qed.

Example stream_nonvacuous :
  let hdr := [[97]; [98]; [99]] in
  let text := [97; 44; 98; 44; 99; 10] ++ [120; 44; 34; 121; 44; 122; 34; 44; 10] ++ [49; 44; 50; 10] ++ [10] ++ [44; 44; 10] in
  let s := run_loop (generic_line_parser CsvRaw COMMA [] hdr) 3 2 text in
  emitted s = [[[Some [120]; Some [121; 44; 122]; Some []]; [Some []; Some []; Some []]]] /\ buf s = [] /\ invalid s = 2 /\ crashed s = false.
Proof. vm_compute. repeat split. Qed.
