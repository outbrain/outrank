(* C16 — the tab-separated parser returns every cell unmodified, empty cells anywhere. *)
From Coq Require Import List NArith Bool.
From Outrank Require Import IO.Str IO.StrProofs IO.Tsv.
Import ListNotations.
Open Scope N_scope.

(* a cell may contain anything except the delimiter and line-break characters *)
Definition tsv_cell (delim : ch) (c : str) : Prop := none (fun x => (x =? delim) || is_nl x) c.

Lemma tsv_line_no_nl delim cells :
  is_nl delim = false -> Forall (tsv_cell delim) cells -> none is_nl (join_with [delim] cells).
Proof.
  intros Hd HF. apply none_join.
  - apply none_cons. split; [exact Hd|reflexivity].
  - eapply Forall_impl; [|exact HF]. intros c. apply cell_no_other.
Qed.

(* any terminator made of CR / LF characters ("\n", "\r\n", none at end of file) *)
Theorem tsv_roundtrip_term delim cells term :
  is_nl delim = false -> all is_nl term -> cells <> [] -> Forall (tsv_cell delim) cells ->
  parse_tsv delim (join_with [delim] cells ++ term) = cells.
Proof.
  intros Hd Ht Hne HF. unfold parse_tsv, rstrip_nl. rewrite rstrip_app.
  - apply split_on_join; [exact Hne|]. eapply Forall_impl; [|exact HF]. intros c. apply cell_no_sep.
  - exact Ht.
  - apply none_last_ok, tsv_line_no_nl; assumption.
Qed.

Theorem tsv_roundtrip cells :
  cells <> [] -> Forall (tsv_cell TAB) cells -> parse_tsv TAB (render_tsv TAB cells) = cells.
Proof. intros Hne HF. unfold render_tsv. apply tsv_roundtrip_term; [reflexivity|reflexivity|exact Hne|exact HF]. Qed.

Theorem tsv_one_physical_line delim rows :
  is_nl delim = false -> Forall (Forall (tsv_cell delim)) rows ->
  phys_lines (concat (map (render_tsv delim) rows)) = map (render_tsv delim) rows.
Proof.
  intros Hd HF. unfold render_tsv.
  rewrite <- (map_map (join_with [delim]) (fun l => l ++ [LF])).
  apply phys_lines_concat. apply Forall_map. eapply Forall_impl; [|exact HF].
  intros r. apply tsv_line_no_nl, Hd.
Qed.

(* the behaviour before fix f0c9429: edge fields are lost *)
Theorem tsv_old_refuted :
  exists cells, cells <> [] /\ Forall (tsv_cell TAB) cells /\
                parse_tsv_old TAB (render_tsv TAB cells) <> cells /\
                length (parse_tsv_old TAB (render_tsv TAB cells)) <> length cells.
Proof.
  exists [[]; [98]; [99]]. split; [discriminate|]. split; [repeat constructor|].
  split; vm_compute; discriminate.
Qed.

(* ... and edge fields are modified even when the count survives *)
Theorem tsv_old_refuted_blanks :
  exists cells, Forall (tsv_cell TAB) cells /\
                length (parse_tsv_old TAB (render_tsv TAB cells)) = length cells /\
                parse_tsv_old TAB (render_tsv TAB cells) <> cells.
Proof.
  exists [[SP; 97]; [98; SP]]. split; [repeat constructor|]. split; vm_compute; [reflexivity|discriminate].
Qed.

Example tsv_nonvacuous :
  let cells := [[]; [97; 32; 44; 34]; []; [233; 8364]; []] in
  cells <> [] /\ Forall (tsv_cell TAB) cells /\ parse_tsv TAB (render_tsv TAB cells) = cells.
Proof. split; [discriminate|]. split; [repeat constructor|]. vm_compute. reflexivity. Qed.
