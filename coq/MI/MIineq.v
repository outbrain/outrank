(* Inequalities for the sums over the rows of a pair list: I >= 0 (Gibbs, from ln t <= t - 1) and H(Y|X) >= 0. *)
From Coq Require Import Reals List Lra Lia Arith ZArith Rpower.
From Outrank Require Import Common.ListFacts Common.RSum MI.MIcore.
Import ListNotations.
Open Scope R_scope.

Lemma ln_le_minus1 : forall y, 0 < y -> ln y <= y - 1.
Proof.
  intros y Hy. pose proof (exp_ineq1_le (y - 1)) as H.
  replace (1 + (y - 1)) with y in H by lra.
  destruct (Rle_lt_or_eq_dec _ _ H) as [Hlt|Heq].
  - apply Rlt_le. rewrite <- (ln_exp (y-1)). apply ln_increasing; assumption.
  - rewrite Heq at 1. rewrite ln_exp. lra.
Qed.

Lemma ln_nonpos y : 0 < y <= 1 -> ln y <= 0.
Proof. intros [H0 H1]. pose proof (ln_le_minus1 y H0). lra. Qed.

(* the ratio n_x n_y / (n n_xy) of an occurring pair *)
Definition gibbs_ratio (P : list (Z * Z)) (xy : Z * Z) : R :=
  cX P (fst xy) * cY P (snd xy) / (INR (length P) * cXY P (fst xy) (snd xy)).

(* summed over the rows, each occurring pair (x, y) contributes n_xy times its ratio, i.e. n_x n_y / n; the pairs
   that do not occur only add to (sum n_x) (sum n_y) / n = n *)
Lemma gibbs_ratio_sum (P : list (Z * Z)) : (0 < length P)%nat -> rsum (gibbs_ratio P) P <= INR (length P).
Proof.
  intros Hn. set (n := INR (length P)). assert (Hp : 0 < n) by (apply lt_0_INR; exact Hn).
  set (UX := nodup Z.eq_dec (map fst P)). set (UY := nodup Z.eq_dec (map snd P)).
  assert (HinX : incl (map fst P) UX) by (intros x Hx; apply nodup_In; exact Hx).
  assert (HinY : incl (map snd P) UY) by (intros y Hy; apply nodup_In; exact Hy).
  rewrite <- (sum_by_value pair_dec (gibbs_ratio P) P (list_prod UX UY)).
  2: apply NoDup_prod; apply NoDup_nodup.
  2: apply incl_prod; assumption.
  apply Rle_trans with (rsum (fun u => cX P (fst u) * (cY P (snd u) / n)) (list_prod UX UY)).
  - apply rsum_le. intros [x y] _. unfold gibbs_ratio. cbn [fst snd]. fold n. fold (cXY P x y).
    destruct (Nat.eq_dec (count_occ pair_dec P (x, y)) 0) as [E|NE].
    + unfold cXY. rewrite E. cbn [INR]. rewrite Rmult_0_l.
      apply Rmult_le_pos; [apply pos_INR|]. apply Rmult_le_pos; [apply pos_INR|]. left. apply Rinv_0_lt_compat. exact Hp.
    + assert (0 < cXY P x y) by (unfold cXY; apply lt_0_INR; lia). right. field. split; lra.
  - rewrite <- (rsum_list_prod (fun x y => cX P x * (cY P y / n)) UX UY), rsum_prod_sep.
    rewrite (rsum_ext_in (fun y => cY P y / n) (fun y => / n * cY P y) UY) by (intros; unfold Rdiv; lra). rewrite rsum_scal.
    unfold cX, cY. rewrite (sum_counts Z.eq_dec _ UX (NoDup_nodup _ _) HinX), (sum_counts Z.eq_dec _ UY (NoDup_nodup _ _) HinY).
    rewrite !map_length. fold n. right. field. lra.
Qed.

(* Gibbs' inequality: with t the ratio above, - n MI = sum_P ln t <= sum_P (t - 1) <= 0 *)
Theorem MIp_ge_0 (P : list (Z * Z)) : (0 < length P)%nat -> 0 <= MIp P.
Proof.
  intros Hn. set (n := INR (length P)). assert (Hp : 0 < n) by (apply lt_0_INR; exact Hn).
  assert (Ht : forall xy, In xy P -> 0 < gibbs_ratio P xy).
  { intros [x y] Hin. destruct (occ_pos P x y Hin) as (Ha & Hb & Hc & _).
    apply Rdiv_lt_0_compat; apply Rmult_lt_0_compat; assumption. }
  assert (H1 : rsum (fun xy => ln (n * cXY P (fst xy) (snd xy) / (cX P (fst xy) * cY P (snd xy)))) P
               = - rsum (fun xy => ln (gibbs_ratio P xy)) P).
  { rewrite <- rsum_opp. apply rsum_ext_in. intros [x y] Hin.
    destruct (occ_pos P x y Hin) as (Ha & Hb & Hc & _).
    rewrite <- ln_Rinv by (apply Ht; exact Hin). apply f_equal. unfold gibbs_ratio. cbn [fst snd]. fold n. field. repeat split; lra. }
  assert (H2 : rsum (fun xy => ln (gibbs_ratio P xy)) P <= rsum (fun xy => gibbs_ratio P xy - 1) P).
  { apply rsum_le. intros xy Hin. apply ln_le_minus1, Ht, Hin. }
  pose proof (gibbs_ratio_sum P Hn) as H3. fold n in H3.
  unfold MIp. fold n. rewrite H1.
  assert (0 < / n) by (apply Rinv_0_lt_compat; exact Hp).
  rewrite rsum_minus, rsum_const in H2. fold n in H2.
  apply Rmult_le_pos; lra.
Qed.

(* H(Y|X) >= 0: every occurring pair has n_xy <= n_x *)
Lemma Hcond_p_nonneg (P : list (Z * Z)) : (0 < length P)%nat -> 0 <= Hcond_p P.
Proof.
  intros Hn. assert (0 < / INR (length P)) by (apply Rinv_0_lt_compat, lt_0_INR, Hn).
  unfold Hcond_p. apply rsum_nonneg. intros [x y] Hin. cbn [fst snd].
  destruct (occ_pos P x y Hin) as (H1 & H2 & _ & H4 & _).
  assert (ln (cXY P x y / cX P x) <= 0).
  { apply ln_nonpos. split; [apply Rdiv_lt_0_compat; assumption|].
    apply (Rmult_le_reg_r (cX P x)); [assumption|]. unfold Rdiv. rewrite Rmult_assoc, Rinv_l by lra. lra. }
  replace (- / INR (length P) * ln (cXY P x y / cX P x)) with (/ INR (length P) * - ln (cXY P x y / cX P x)) by ring.
  apply Rmult_le_pos; lra.
Qed.

(* the same with lists of candidate values, the form the count-level expressions of MIcore are stated with; the lists
   play no role here *)
Section Gibbs.
  Variable P : list (Z * Z).
  Variables UX UY : list Z.
  Hypothesis HndX : NoDup UX.
  Hypothesis HndY : NoDup UY.
  Hypothesis HinX : incl (map fst P) UX.
  Hypothesis HinY : incl (map snd P) UY.
  Hypothesis Hn : (0 < length P)%nat.

  Theorem MIp_nonneg : 0 <= MIp P.
  Proof using HndX HndY HinX HinY Hn. exact (MIp_ge_0 P Hn). Qed.
End Gibbs.
