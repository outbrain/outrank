(* C04 — the two float computations of stratified_subsampling equal the exact ones of the model.

     final_space_size       = int(approximation_factor * all_events)     float32 * int64 -> binary64 product, truncation
     unique_samples_per_val = int(final_space_size / len(_f_values_X))   int / int -> binary64 division, truncation

   Stated over Flocq's  round radix2 (FLT_exp (-1074) 53) ZnearestE  (binary64, round to nearest even); the
   float32 argument is any real in the format  FLT_exp (-149) 24  (binary32; its conversion to binary64 is
   exact because binary32 is a subset).  What remains trusted is only that numba evaluates float32 * int64 as
   a binary64 multiplication and int / int as a binary64 division, and then truncates.
   Theorems over R: they depend on the standard-library Reals axioms only. *)
From Coq Require Import ZArith Reals Lia Lra QArith Qreals List.
From Flocq Require Import Core.
From Outrank Require Import MI.Subsample MI.SubProofs.
Local Close Scope Q_scope.
Local Open Scope R_scope.

Definition b32 : Z -> Z := FLT_exp (-149) 24.
Definition b64 : Z -> Z := FLT_exp (-1074) 53.
Definition rnd64 (x : R) : R := round radix2 b64 ZnearestE x.
Definition format32 (x : R) : Prop := generic_format radix2 b32 x.
Definition format64 (x : R) : Prop := generic_format radix2 b64 x.

Global Instance prec53_gt_0 : Prec_gt_0 53.
Proof. reflexivity. Qed.
Global Instance prec24_gt_0 : Prec_gt_0 24.
Proof. reflexivity. Qed.
Global Instance b64_valid : Valid_exp b64 := FLT_exp_valid (-1074) 53.
Global Instance b32_valid : Valid_exp b32 := FLT_exp_valid (-149) 24.

Lemma rnd64_ge x y : format64 x -> x <= y -> x <= rnd64 y.
Proof. intros F H. unfold rnd64. apply round_ge_generic; try typeclasses eauto; assumption. Qed.
Lemma rnd64_le x y : format64 y -> x <= y -> rnd64 x <= y.
Proof. intros F H. unfold rnd64. apply round_le_generic; try typeclasses eauto; assumption. Qed.
Lemma rnd64_id x : format64 x -> rnd64 x = x.
Proof. intros F. unfold rnd64. apply round_generic; try typeclasses eauto; assumption. Qed.

(* the code's two computations, on reals *)
Definition float_final_space_size (r : R) (n : Z) : Z := Ztrunc (rnd64 (r * IZR n)).
Definition float_quota (fs k : Z) : Z := Ztrunc (rnd64 (IZR fs / IZR k)).

Lemma format64_int_scaled (m e : Z) : (Z.abs m < 2 ^ 53)%Z -> (-1074 <= e)%Z -> format64 (IZR m * bpow radix2 e).
Proof.
  intros Hm He. apply generic_format_FLT. apply (FLT_spec radix2 (-1074) 53 _ (Float radix2 m e)).
  - reflexivity.
  - exact Hm.
  - exact He.
Qed.

Lemma format64_int (m : Z) : (Z.abs m < 2 ^ 53)%Z -> format64 (IZR m).
Proof.
  intros Hm. replace (IZR m) with (IZR m * bpow radix2 0) by (cbn; ring).
  apply format64_int_scaled; [exact Hm | lia].
Qed.

(* (a) the product of a binary32 number and an integer below 2^29 is a binary64 number (the format has no largest exponent) *)
Lemma product_format64 (r : R) (n : Z) :
  format32 r -> (0 <= n < 2 ^ 29)%Z -> format64 (r * IZR n).
Proof.
  intros Hr Hn. apply FLT_format_generic in Hr; [|typeclasses eauto].
  destruct Hr as [[m e] E Hm He]. cbn [Fnum Fexp] in Hm, He.
  rewrite E. unfold F2R. cbn [Fnum Fexp].
  replace (IZR m * bpow radix2 e * IZR n) with (IZR (m * n) * bpow radix2 e) by (rewrite mult_IZR; ring).
  apply format64_int_scaled; [|lia].
  rewrite Z.abs_mul, (Z.abs_eq n) by lia.
  change (Z.pow radix2 24) with (2 ^ 24)%Z in Hm.
  assert (Z.abs m * n < 2 ^ 24 * 2 ^ 29)%Z by nia.
  change (2 ^ 53)%Z with (2 ^ 24 * 2 ^ 29)%Z. exact H.
Qed.

Lemma product_exact (r : R) (n : Z) :
  format32 r -> 0 < r < 1 -> (0 <= n < 2 ^ 29)%Z ->
  format64 (r * IZR n) /\ rnd64 (r * IZR n) = r * IZR n /\
  float_final_space_size r n = Zfloor (r * IZR n).
Proof.
  intros Hr Hr1 Hn. pose proof (product_format64 r n Hr Hn) as F.
  assert (E : rnd64 (r * IZR n) = r * IZR n) by (apply rnd64_id; exact F).
  split; [exact F|]. split; [exact E|].
  unfold float_final_space_size. rewrite E. apply Ztrunc_floor.
  apply Rmult_le_pos; [lra | apply IZR_le; lia].
Qed.

(* (b) truncating the rounded quotient of two integers below 2^29 gives the integer quotient *)
Lemma pow2_cover (b : Z) : (1 <= b)%Z -> exists j, (0 <= j /\ b <= 2 ^ j /\ 2 ^ j < 2 * b)%Z.
Proof.
  intros Hb. destruct (Z.eq_dec b 1) as [E|E].
  - exists 0%Z. subst. cbn. lia.
  - assert (H1 : (1 < b)%Z) by lia. pose proof (Z.log2_up_spec b H1) as [L U].
    pose proof (Z.log2_up_pos b H1) as P.
    exists (Z.log2_up b). split; [lia|]. split; [exact U|].
    replace (Z.log2_up b) with (Z.succ (Z.pred (Z.log2_up b))) by lia.
    rewrite Z.pow_succ_r by lia. lia.
Qed.

Lemma Zfloor_rnd64 (x : R) (k : Z) :
  format64 (IZR k) -> IZR k <= x -> (exists y, format64 y /\ x <= y < IZR (k + 1)) -> Zfloor (rnd64 x) = k.
Proof.
  intros Fk Lo [y [Fy [Hxy Hy1]]]. apply Zfloor_imp. split.
  - apply rnd64_ge; assumption.
  - apply Rle_lt_trans with y; [apply rnd64_le; assumption|exact Hy1].
Qed.

(* a binary64 number in [a/b, a/b + 1/b): with b <= 2^j < 2b it is ((k + 1) 2^j - 1) / 2^j, whose numerator is below
   2^53 because k b <= a < 2^29 *)
Lemma quotient_below_succ (a b : Z) : (0 <= a < 2 ^ 29)%Z -> (1 <= b < 2 ^ 29)%Z ->
  exists y, format64 y /\ IZR a / IZR b <= y < IZR (a / b + 1).
Proof.
  intros Ha Hb. set (k := (a / b)%Z).
  assert (Hk0 : (0 <= k)%Z) by (apply Z.div_pos; lia).
  assert (Hkb : (b * k <= a)%Z) by (apply Z.mul_div_le; lia).
  assert (Hka : (a < b * (k + 1))%Z).
  { pose proof (Z.mul_succ_div_gt a b ltac:(lia)). unfold k. lia. }
  assert (Bp : 0 < IZR b) by (apply IZR_lt; lia).
  destruct (pow2_cover b ltac:(lia)) as [j [Hj0 [Hj1 Hj2]]].
  set (P := (2 ^ j)%Z) in *. set (N := ((k + 1) * P - 1)%Z).
  assert (HP : (0 < P)%Z) by lia.
  assert (Pp : 0 < IZR P) by (apply IZR_lt; lia).
  assert (HPj : IZR P = bpow radix2 j) by (unfold P; rewrite <- IZR_Zpower by lia; reflexivity).
  assert (Hj29 : (j <= 29)%Z).
  { destruct (Z_le_gt_dec j 29) as [L|G]; [exact L|]. exfalso.
    assert (2 ^ 30 <= 2 ^ j)%Z by (apply Z.pow_le_mono_r; lia). unfold P in *. lia. }
  exists (IZR N * bpow radix2 (- j)). split; [|split].
  - apply format64_int_scaled; [|lia]. unfold N. rewrite Z.abs_eq by nia.
    assert (k * P < 2 ^ 30)%Z by nia.
    assert (2 ^ 30 + 2 ^ 30 < 2 ^ 53)%Z by (cbn; lia). nia.
  - rewrite bpow_opp, <- HPj. fold (IZR N / IZR P).
    apply Rmult_le_reg_r with (IZR b * IZR P); [apply Rmult_lt_0_compat; assumption|].
    replace (IZR a / IZR b * (IZR b * IZR P)) with (IZR a * IZR P) by (field; lra).
    replace (IZR N / IZR P * (IZR b * IZR P)) with (IZR N * IZR b) by (field; lra).
    rewrite <- !mult_IZR. apply IZR_le. unfold N.
    assert (b * (k + 1) - a >= 1)%Z by lia. nia.
  - rewrite bpow_opp, <- HPj. fold (IZR N / IZR P).
    apply Rmult_lt_reg_r with (IZR P); [exact Pp|].
    replace (IZR N / IZR P * IZR P) with (IZR N) by (field; lra).
    rewrite <- mult_IZR. apply IZR_lt. unfold N. lia.
Qed.

Lemma quotient_floor (a b : Z) : (0 <= a < 2 ^ 29)%Z -> (1 <= b < 2 ^ 29)%Z ->
  Zfloor (rnd64 (IZR a / IZR b)) = (a / b)%Z /\ float_quota a b = (a / b)%Z.
Proof.
  intros Ha Hb.
  assert (Hk0 : (0 <= a / b)%Z) by (apply Z.div_pos; lia).
  assert (Hkb : (b * (a / b) <= a)%Z) by (apply Z.mul_div_le; lia).
  assert (Bp : 0 < IZR b) by (apply IZR_lt; lia).
  assert (Lo : IZR (a / b) <= IZR a / IZR b).
  { apply Rmult_le_reg_r with (IZR b); [exact Bp|].
    replace (IZR a / IZR b * IZR b) with (IZR a) by (field; lra).
    rewrite <- mult_IZR. apply IZR_le. lia. }
  assert (Fl : Zfloor (rnd64 (IZR a / IZR b)) = (a / b)%Z).
  { apply Zfloor_rnd64; [apply format64_int; nia|exact Lo|apply quotient_below_succ; assumption]. }
  split; [exact Fl|].
  unfold float_quota. rewrite Ztrunc_floor; [exact Fl|].
  apply Rle_trans with (IZR (a / b)); [apply IZR_le; exact Hk0|].
  apply rnd64_ge; [apply format64_int; nia|exact Lo].
Qed.

(* (c) connection with the model's exact definitions *)
Lemma Zfloor_Q2R_mul (q : Q) (n : Z) : Zfloor (Q2R q * IZR n) = ((Qnum q * n) / Zpos (Qden q))%Z.
Proof.
  unfold Q2R. replace (IZR (Qnum q) * / IZR (Zpos (Qden q)) * IZR n) with (IZR (Qnum q * n) / IZR (Zpos (Qden q))).
  - apply Zfloor_div. discriminate.
  - rewrite mult_IZR. unfold Rdiv. ring.
Qed.

Lemma final_space_size_float (q : Q) (n : nat) :
  format32 (Q2R q) -> 0 < Q2R q < 1 -> (Z.of_nat n < 2 ^ 29)%Z ->
  Z.of_nat (final_space_size q n) = float_final_space_size (Q2R q) (Z.of_nat n) /\
  (Z.of_nat (final_space_size q n) <= Z.of_nat n)%Z.
Proof.
  intros F R N. destruct (product_exact (Q2R q) (Z.of_nat n) F R ltac:(lia)) as [_ [_ E]].
  rewrite E, Zfloor_Q2R_mul. unfold final_space_size.
  assert (Qp : (0 < Qnum q)%Z).
  { assert (H : (0 < q)%Q) by (apply Rlt_Qlt; unfold Q2R at 1; cbn; lra).
    unfold Qlt in H. cbn in H. lia. }
  assert (Ql : (Qnum q < Zpos (Qden q))%Z).
  { assert (H : (q < 1)%Q) by (apply Rlt_Qlt; unfold Q2R at 2; cbn; lra).
    unfold Qlt in H. cbn in H. lia. }
  assert (D0 : (0 <= Qnum q * Z.of_nat n / Zpos (Qden q))%Z) by (apply Z.div_pos; [nia|reflexivity]).
  rewrite Z2Nat.id by exact D0. split; [reflexivity|].
  apply Z.div_le_upper_bound; [reflexivity|]. nia.
Qed.

(* for n < 2^29 the quota the code computes in floats is the model's exact quota *)
Lemma quota_float (X : list Z) (q : Q) :
  X <> nil -> (Z.of_nat (length X) < 2 ^ 29)%Z -> format32 (Q2R q) -> 0 < Q2R q < 1 ->
  Z.of_nat (quota X q) =
  float_quota (float_final_space_size (Q2R q) (Z.of_nat (length X))) (Z.of_nat (length (f_values X))).
Proof.
  intros NE N F R. destruct (final_space_size_float q (length X) F R N) as [E1 E2].
  rewrite <- E1.
  pose proof (f_values_length X) as L1. pose proof (f_values_nonempty X NE) as L2.
  destruct (quotient_floor (Z.of_nat (final_space_size q (length X))) (Z.of_nat (length (f_values X)))) as [_ E3]; [lia|lia|].
  rewrite E3. unfold quota, quota_of. rewrite Nat2Z.inj_div. reflexivity.
Qed.

(* np.float32(0.7) *)
Lemma ex_float32 : format32 (Q2R (11744051 # 16777216)) /\ 0 < Q2R (11744051 # 16777216) < 1.
Proof.
  split.
  - unfold Q2R. cbn [Qnum Qden]. apply generic_format_FLT.
    apply (FLT_spec radix2 (-149) 24 _ (Float radix2 11744051 (-24))).
    + unfold F2R, bpow. cbn [Fnum Fexp]. do 2 apply f_equal. reflexivity.
    + cbn. lia.
    + cbn. lia.
  - unfold Q2R. cbn [Qnum Qden]. lra.
Qed.
