(* C04 / C01-C03 — the two Coq transcriptions of compute_entropies agree.
   MI/Model.v (C01-C03: list Z terms, no ratio, no error monad) is imported READ-ONLY and never opened, every
   name of it is written qualified.  Without subsampling (r >= 1) the estimator of MI/Subsample.v returns a
   term structure whose encoding — the one both harnesses evaluate in float64 — is the encoding of Model.entry.
   Lists / nat / Z only: closed under the global context (Model.eval_R is not used here). *)
From Coq Require Import List Arith ZArith QArith Bool Lia.
From Outrank Require MI.Model.
From Outrank Require Import Common.ListFacts MI.Unique MI.Subsample MI.SubProofs.
Import ListNotations.
Local Close Scope Q_scope.

(* first four components of enc_terms: what Model.enc produces (the fifth is the ratio) *)
Definition enc4 (t : terms) : Z * list Z * list (Z * list Z * list Z) * bool :=
  (Z.of_nat (t_n t), map Z.of_nat (t_classes t),
   map (fun s => (Z.of_nat (s_cnt s), enc_counts (s_real s), enc_counts (s_spoof s))) (t_strata t), t_corr t).

Lemma enc_terms_enc4 t : enc_terms t = (enc4 t, (Qnum (t_factor t), Zpos (Qden (t_factor t)))).
Proof. reflexivity. Qed.

Lemma cnt_count_eq l c : Model.cnt c l = count_eq l c.
Proof. rewrite cnt_count, count_eq_count. reflexivity. Qed.

Lemma nu_combine a :
  numba_unique a = combine (Model.uvals a) (map (fun v => Model.cnt v a) (Model.uvals a)).
Proof.
  rewrite combine_map_r, numba_unique_graph. apply map_ext. intros v. rewrite cnt_count. reflexivity.
Qed.

Lemma snd_counts a : map snd (numba_unique a) = map (fun v => Model.cnt v a) (Model.uvals a).
Proof. rewrite numba_unique_graph, map_map. apply map_ext. intros v. rewrite cnt_count. reflexivity. Qed.

Lemma nz_enc l : Model.nz (map Z.of_nat l) = enc_counts l.
Proof.
  unfold Model.nz, enc_counts, nonzero. induction l as [|k t IH]; [reflexivity|]. cbn [map filter].
  destruct k as [|k]; [cbn; exact IH|]. cbn [Nat.eqb negb]. cbn [map]. rewrite <- IH.
  destruct (Z.eqb_spec (Z.of_nat (S k)) 0) as [E|E]; [lia|reflexivity].
Qed.

Lemma veq_agree A B : Model.veq A B = veq A B.
Proof.
  unfold veq. destruct (list_eq_dec Z.eq_dec A B) as [E|E]; [apply veq_spec|apply veq_false]; exact E.
Qed.

Lemma stratum_agree X Y cls v k :
  (fun s => (Z.of_nat (s_cnt s), enc_counts (s_real s), enc_counts (s_spoof s))) (stratum_spec X Y cls v k) =
  (fun s => (Model.s_cnt s, Model.nz (Model.s_real s), Model.nz (Model.s_spoof s))) (Model.stratum_of X Y cls v k).
Proof.
  cbn beta. unfold stratum_spec, Model.stratum_of. cbn [s_cnt s_real s_spoof Model.s_cnt Model.s_real Model.s_spoof].
  unfold where_eq. rewrite where_agree. unfold rows, Model.gather. rewrite map_map.
  rewrite <- !nz_enc, !map_map. f_equal; [f_equal|]; f_equal; apply map_ext; intros c; rewrite cnt_count_eq; reflexivity.
Qed.

Lemma terms_agree X Y c r :
  enc4 (terms_spec X Y (length X) (numba_unique X) c r) = Model.enc (Model.core Y X c).
Proof.
  unfold Model.core, Model.numba_unique, Model.compute_entropies, Model.numba_unique, Model.enc, enc4, terms_spec.
  cbn [t_n t_classes t_strata t_corr Model.t_n Model.t_classes Model.t_strata Model.t_corr].
  rewrite snd_counts, <- f_values_uvals, !map_map. f_equal. f_equal.
  rewrite (nu_combine X) at 1.
  set (l := combine (Model.uvals X) (map (fun v => Model.cnt v X) (Model.uvals X))).
  assert (F : filter (fun vc => negb (snd vc =? 1)) l = filter Model.not_singleton l) by reflexivity.
  rewrite F. apply map_ext. intros [v k]. cbn [fst snd]. apply stratum_agree.
Qed.

(* no subsampling (r >= 1): same encoded terms as the C01-C03 model *)
Theorem entry_agrees_full (g : nat -> Z) Y X r c : length Y = length X -> lt_one r = false ->
  exists t, entry g Y X r c = Ok t /\ enc4 t = Model.enc (Model.entry Y X c).
Proof.
  intros L R. rewrite entry_spec by exact L. unfold entry_indices. rewrite R.
  rewrite rows_all. replace (rows Y (seq 0 (length X))) with Y by (rewrite <- L; symmetry; apply rows_all). eexists. split; [reflexivity|].
  rewrite terms_agree. unfold Model.entry. rewrite veq_agree.
  destruct (veq X Y); destruct c; reflexivity.
Qed.
