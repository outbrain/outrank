(* The class counts the transcription takes inside a stratum (Y read at the positions where X = v, directly or shifted)
   are joint counts of X with Y, resp. with the displaced copy of Y. *)
From Coq Require Import List Arith Lia ZArith.
From Outrank Require Import Common.ListFacts MI.Unique MI.MIcore MI.Model MI.Spec.
Import ListNotations.

Lemma count_where_general (F : nat -> Z) v c X : forall i,
  count_occ Z.eq_dec (map F (where_eq i v X)) c
  = count_occ pair_dec (combine X (map F (seq i (length X)))) (v, c).
Proof.
  induction X as [|x r IH]; intros i; [reflexivity|].
  cbn [where_eq length seq map combine].
  destruct (Z.eqb x v) eqn:E.
  - apply Z.eqb_eq in E. subst x. cbn [map].
    destruct (Z.eq_dec (F i) c) as [Ec|NEc].
    + rewrite !count_occ_cons_eq; [rewrite IH; reflexivity| |assumption]. rewrite Ec. reflexivity.
    + rewrite !count_occ_cons_neq; [apply IH| |assumption]. intros H. apply NEc. inversion H. reflexivity.
  - apply Z.eqb_neq in E. rewrite count_occ_cons_neq; [apply IH|]. intros H. apply E. inversion H. reflexivity.
Qed.

(* real class counts of a stratum = joint counts *)
Theorem stratum_counts X Y v c : length X = length Y ->
  count_occ Z.eq_dec (map (fun i => nth i Y 0%Z) (where_eq 0 v X)) c = count_occ pair_dec (combine X Y) (v, c).
Proof. intros Hl. rewrite count_where_general, Hl, map_nth_seq. reflexivity. Qed.

(* displaced ("spoofed") class counts of a stratum = joint counts with the displaced vector *)
Theorem spoof_counts X Y v c : length X = length Y ->
  let n := length Y in let k := count_occ Z.eq_dec X v in
  count_occ Z.eq_dec (map (fun el => nth ((el + k) mod n) Y 0%Z) (where_eq 0 v X)) c
  = count_occ pair_dec (combine X (displace Y X)) (v, c).
Proof.
  intros Hl n k. unfold displace. fold n. replace (seq 0 n) with (seq 0 (length X)) by (unfold n; rewrite Hl; reflexivity).
  rewrite <- (count_where_general (fun i => nth ((i + count_occ Z.eq_dec X (nth i X 0%Z)) mod n) Y 0%Z) v c X 0).
  f_equal. apply map_ext_in. intros j Hj. apply where_in in Hj. destruct Hj as [_ Hn].
  rewrite Nat.sub_0_r in Hn. rewrite (nth_error_nth _ _ _ Hn). reflexivity.
Qed.
Print Assumptions spoof_counts.
