(* numba_unique, np.where and counting in the transcription MI/Model.v, in terms of the standard list functions:
   [cnt] is [count_occ], [where_eq] lists in increasing order the positions holding a value, [uvals] is the strictly
   increasing list of the values that occur.  MI/SubProofs.v shows that the second transcription (MI/Subsample.v)
   computes the same functions and takes its facts from here.  Lists, nat and Z only. *)
From Coq Require Import List Arith ZArith Lia Bool Sorting.Sorted.
From Outrank Require Import Common.ListFacts MI.Model.
Import ListNotations.

Lemma cnt_count v a : cnt v a = count_occ Z.eq_dec a v.
Proof.
  induction a as [|x a IH]; [reflexivity|]. cbn [cnt count_occ]. rewrite IH.
  destruct (Z.eqb_spec x v), (Z.eq_dec x v); try reflexivity; contradiction.
Qed.

Lemma where_in v X : forall i j, In j (where_eq i v X) <-> i <= j /\ nth_error X (j - i) = Some v.
Proof.
  induction X as [|x r IH]; intros i j; cbn [where_eq].
  - split; [intros [] | intros [_ H]; destruct (j - i); discriminate].
  - assert (Hr : In j (where_eq (S i) v r) <-> i < j /\ nth_error (x :: r) (j - i) = Some v).
    { rewrite IH. split; intros [Hle Hn]; (split; [lia|]); replace (j - i) with (S (j - S i)) in * by lia; exact Hn. }
    assert (H0 : nth_error (x :: r) (i - i) = Some v <-> x = v).
    { rewrite Nat.sub_diag. cbn [nth_error]. split; congruence. }
    destruct (Z.eqb_spec x v) as [E|NE]; cbn [In]; rewrite Hr.
    + split.
      * intros [<-|[Hlt Hn]]; [split; [lia|apply H0; exact E]|split; [lia|exact Hn]].
      * intros [Hle Hn]. destruct (Nat.eq_dec i j) as [D|D]; [left; exact D|right; split; [lia|exact Hn]].
    + split.
      * intros [Hlt Hn]. split; [lia|exact Hn].
      * intros [Hle Hn]. split; [|exact Hn]. destruct (Nat.eq_dec i j) as [<-|D]; [|lia]. apply H0 in Hn. contradiction.
Qed.

Lemma where_bounds v X i j : In j (where_eq i v X) -> i <= j < i + length X.
Proof.
  intros H. apply where_in in H. destruct H as [H1 H2]. split; [exact H1|].
  assert (j - i < length X) by (apply nth_error_Some; congruence). lia.
Qed.

Lemma where_sorted v X : forall i, StronglySorted lt (where_eq i v X).
Proof.
  induction X as [|x r IH]; intros i; cbn [where_eq]; [constructor|].
  destruct (x =? v)%Z; [|apply IH].
  constructor; [apply IH|]. apply Forall_forall. intros j Hj. apply where_bounds in Hj. lia.
Qed.

Lemma where_nodup v X i : NoDup (where_eq i v X).
Proof. apply (StronglySorted_NoDup lt); [exact Nat.lt_irrefl|apply where_sorted]. Qed.

Lemma where_length v X : forall i, length (where_eq i v X) = count_occ Z.eq_dec X v.
Proof.
  induction X as [|x r IH]; intros i; cbn [where_eq count_occ]; [reflexivity|].
  destruct (Z.eqb_spec x v), (Z.eq_dec x v); try contradiction; cbn [length]; rewrite IH; reflexivity.
Qed.

Lemma zinsert_in x l z : In z (zinsert x l) <-> z = x \/ In z l.
Proof.
  induction l as [|y r IH]; cbn [zinsert].
  - cbn [In]. intuition.
  - destruct (Z.ltb_spec x y).
    + cbn [In]. intuition.
    + destruct (Z.eqb_spec x y).
      * subst. cbn [In]. intuition.
      * cbn [In]. rewrite IH. intuition.
Qed.

Lemma zinsert_sorted x l : StronglySorted Z.lt l -> StronglySorted Z.lt (zinsert x l).
Proof.
  induction l as [|y r IH]; intros Hs; cbn [zinsert]; [repeat constructor|].
  apply StronglySorted_inv in Hs. destruct Hs as [Hr Hy].
  destruct (Z.ltb_spec x y) as [L|L]; [|destruct (Z.eqb_spec x y) as [E|NE]].
  - constructor; [constructor; assumption|]. constructor; [exact L|].
    eapply Forall_impl; [|exact Hy]. cbn. intros z Hz. lia.
  - constructor; assumption.
  - constructor; [apply IH; exact Hr|]. apply Forall_forall. intros z Hz.
    apply zinsert_in in Hz. destruct Hz as [->|Hz]; [lia|]. rewrite Forall_forall in Hy. apply Hy. exact Hz.
Qed.

Lemma uvals_sorted a : StronglySorted Z.lt (uvals a).
Proof. induction a as [|x a IH]; [constructor|]. cbn [uvals fold_right]. apply zinsert_sorted. exact IH. Qed.

Lemma uvals_in a z : In z (uvals a) <-> In z a.
Proof.
  induction a as [|x a IH]; [reflexivity|]. cbn [uvals fold_right]. rewrite zinsert_in.
  fold (uvals a). rewrite IH. cbn [In]. intuition.
Qed.

Lemma uvals_nodup a : NoDup (uvals a).
Proof. apply (StronglySorted_NoDup Z.lt); [exact Z.lt_irrefl|apply uvals_sorted]. Qed.

Lemma uvals_incl a : incl a (uvals a).
Proof. intros z Hz. apply uvals_in. exact Hz. Qed.

Lemma uvals_length a : length (uvals a) <= length a.
Proof. apply NoDup_incl_length; [apply uvals_nodup|]. intros z Hz. apply uvals_in. exact Hz. Qed.

Lemma veq_spec a b : veq a b = true <-> a = b.
Proof. exact (eqb_list_eq Z.eqb Z.eqb_eq a b). Qed.

Lemma veq_refl a : veq a a = true.
Proof. apply veq_spec. reflexivity. Qed.

Lemma veq_false a b : a <> b -> veq a b = false.
Proof. intros H. apply not_true_iff_false. rewrite veq_spec. exact H. Qed.

Lemma veq_sym a b : veq a b = veq b a.
Proof. apply eq_true_iff_eq. rewrite !veq_spec. split; congruence. Qed.
