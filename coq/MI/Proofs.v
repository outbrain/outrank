(* C01-C03 — proofs connecting the transcription (MI/Model.v) to the specification (MI/Spec.v).
   Both sides are brought to sums over the rows, i.e. over the pair list P = combine X Y (MIp, Hfull_p, Hcond_p):
     eval_R (core Y X c)  =  count-level expressions of MIcore (Hfull_c, Hcond_c)   [MIrefine]
                          =  sums over the rows                                     [sum_by_value]
     textbook sums over occurring values (Spec)  =  sums over the rows              [sum_nodup]
   and every property is then a statement about the rows. *)
From Coq Require Import Reals List Lra Lia Arith ZArith Rpower Bool.
From Outrank Require Import Common.ListFacts Common.RSum MI.Unique MI.MIcore MI.MIineq MI.MIcor MI.Model MI.Spec MI.MIrefine.
Import ListNotations.
Open Scope R_scope.

(* the strata compute_entropies loops over, and the score as the code's sums over them *)
Definition strata (X Y : list Z) : list stratum :=
  map (fun p => stratum_of X Y (uvals Y) (fst p) (snd p))
      (filter not_singleton (combine (uvals X) (map (fun v => cnt v X) (uvals X)))).

Lemma eval_R_core Y X c :
  eval_R (core Y X c)
  = let n := Z.of_nat (length X) in
    let cond := rsum (fun s => cond_entropy n (s_cnt s) (s_real s)) (strata X Y) in
    let bg := rsum (fun s => cond_entropy n (s_cnt s) (s_spoof s)) (strata X Y) in
    if c then - cond + bg else full_entropy n (map Z.of_nat (map (fun v => cnt v Y) (uvals Y))) - cond.
Proof. reflexivity. Qed.   (* by computation, through the two let-patterns on numba_unique in core and compute_entropies *)

Lemma strata_sum (G : stratum -> R) X Y :
  rsum G (strata X Y) = rsum (fun v => if Nat.eqb (cnt v X) 1 then 0 else G (stratum_of X Y (uvals Y) v (cnt v X))) (uvals X).
Proof.
  unfold strata. induction (uvals X) as [|v UX IH]; [reflexivity|].
  cbn [map combine filter]. unfold not_singleton at 1. cbn [snd].
  rewrite rsum_cons. destruct (Nat.eqb (cnt v X) 1); cbn [negb].
  - rewrite IH. lra.
  - cbn [map fst snd]. rewrite rsum_cons, IH. reflexivity.
Qed.

(* compute_conditional_entropy on a list of counts given by a function of the class value *)
Lemma cond_counts (n k : nat) (f : Z -> nat) (UY : list Z) :
  cond_entropy (Z.of_nat n) (Z.of_nat k) (map (fun c => Z.of_nat (f c)) UY)
  = rsum (fun c => if Nat.eqb (f c) 0 then 0
                   else (INR k / INR n) * (INR (f c) / INR k) * (- ln (INR (f c) / INR k))) UY.
Proof.
  unfold cond_entropy. rewrite rsum_map. apply rsum_ext_in. intros c _.
  rewrite <- !INR_IZR_INZ.
  destruct (f c) as [|m] eqn:E; [reflexivity|].
  replace (Z.of_nat (S m) =? 0)%Z with false by (symmetry; apply Z.eqb_neq; lia).
  cbn [Nat.eqb]. ring.
Qed.

(* the conditional-entropy sum of the code over one of the two count lists of the strata ([proj] = s_real or
   s_spoof) is the count-level expression for the vector Y' whose joint counts with X that list holds
   (Y itself, or its displaced copy) *)
Lemma cond_sum (proj : stratum -> list Z) X Y Y' : length Y' = length X ->
  (forall v, proj (stratum_of X Y (uvals Y) v (cnt v X))
             = map (fun c => Z.of_nat (count_occ pair_dec (combine X Y') (v, c))) (uvals Y)) ->
  rsum (fun s => cond_entropy (Z.of_nat (length X)) (s_cnt s) (proj s)) (strata X Y)
  = Hcond_c (combine X Y') (uvals X) (uvals Y).
Proof.
  intros Hl Hproj. rewrite strata_sum. unfold Hcond_c, stratum_c, cX, cXY.
  rewrite map_fst_combine, combine_length_eq by (symmetry; exact Hl).
  apply rsum_ext_in. intros v _. rewrite Hproj, (cnt_count v X).
  destruct (Nat.eqb (count_occ Z.eq_dec X v) 1); [reflexivity|].
  cbn [stratum_of s_cnt]. apply cond_counts.
Qed.

Lemma displace_length Y X : length (displace Y X) = length Y.
Proof. unfold displace. rewrite map_length, seq_length. reflexivity. Qed.

Lemma displace_incl Y X : incl (displace Y X) Y.
Proof.
  unfold displace. intros z Hz. apply in_map_iff in Hz. destruct Hz as [i [<- Hi]].
  apply in_seq in Hi. apply nth_In. apply Nat.mod_upper_bound. lia.
Qed.

(* the value lists the code sums over cover the rows of X paired with any vector made of values of Y *)
Lemma rows_values X Y Y' : length Y' = length X -> incl Y' Y ->
  incl (map fst (combine X Y')) (uvals X) /\ incl (map snd (combine X Y')) (uvals Y).
Proof.
  intros Hl Hi. rewrite map_fst_combine, map_snd_combine by (symmetry; exact Hl). split; [apply uvals_incl|].
  intros z Hz. apply uvals_in, Hi, Hz.
Qed.

Lemma Hcond_c_uvals X Y Y' : length Y' = length X -> (0 < length X)%nat -> incl Y' Y ->
  Hcond_c (combine X Y') (uvals X) (uvals Y) = Hcond_p (combine X Y').
Proof.
  intros Hl Hn Hi. destruct (rows_values X Y Y' Hl Hi) as [HX HY].
  apply Hcond_c_rows; try apply uvals_nodup; try assumption.
  rewrite combine_length_eq by (symmetry; exact Hl). exact Hn.
Qed.

Section Refine.
  Variables Y X : list Z.
  Hypothesis Hlen : length Y = length X.
  Let P := combine X Y.
  Let Ps := combine X (displace Y X).

  Lemma Ps_snd : map snd Ps = displace Y X. Proof. apply map_snd_combine. rewrite displace_length. symmetry. exact Hlen. Qed.

  Lemma real_joint v : s_real (stratum_of X Y (uvals Y) v (cnt v X))
                       = map (fun c => Z.of_nat (count_occ pair_dec P (v, c))) (uvals Y).
  Proof.
    cbn [stratum_of s_real]. apply map_ext. intros c.
    rewrite cnt_count. unfold gather. rewrite (stratum_counts X Y v c) by (symmetry; exact Hlen). reflexivity.
  Qed.

  Lemma spoof_joint v : s_spoof (stratum_of X Y (uvals Y) v (cnt v X))
                        = map (fun c => Z.of_nat (count_occ pair_dec Ps (v, c))) (uvals Y).
  Proof.
    cbn [stratum_of s_spoof]. apply map_ext. intros c.
    rewrite !cnt_count. exact (f_equal Z.of_nat (spoof_counts X Y v c (eq_sym Hlen))).
  Qed.

  Lemma full_sum :
    full_entropy (Z.of_nat (length X)) (map Z.of_nat (map (fun v => cnt v Y) (uvals Y))) = Hfull_c P (uvals Y).
  Proof.
    unfold full_entropy, Hfull_c, cY, P.
    rewrite map_snd_combine, combine_length_eq, !rsum_map by (symmetry; exact Hlen).
    apply rsum_ext_in. intros c _. rewrite <- !INR_IZR_INZ, cnt_count. reflexivity.
  Qed.

  Lemma eval_core_false : (0 < length X)%nat -> eval_R (core Y X false) = MIp P.
  Proof.
    intros Hn. rewrite eval_R_core. cbv zeta. rewrite (cond_sum s_real X Y Y Hlen real_joint), full_sum.
    destruct (rows_values X Y Y Hlen (incl_refl Y)) as [HX HY].
    apply model_is_plugin; try apply uvals_nodup; try assumption.
    unfold P. rewrite combine_length_eq by (symmetry; exact Hlen). exact Hn.
  Qed.

  Lemma eval_core_true : (0 < length X)%nat -> eval_R (core Y X true) = Hcond_p Ps - Hcond_p P.
  Proof.
    intros Hn. rewrite eval_R_core. cbv zeta.
    assert (Hds : length (displace Y X) = length X) by (rewrite displace_length; exact Hlen).
    rewrite (cond_sum s_real X Y Y Hlen real_joint), (cond_sum s_spoof X Y (displace Y X) Hds spoof_joint).
    rewrite (Hcond_c_uvals X Y Y Hlen Hn (incl_refl Y)).
    rewrite (Hcond_c_uvals X Y (displace Y X) Hds Hn (displace_incl Y X)). unfold P, Ps. ring.
  Qed.
End Refine.

Section Bridge.
  Variables Y X : list Z.
  Hypothesis Hlen : length Y = length X.
  Hypothesis Hn : (0 < length X)%nat.
  Let P := combine X Y.

  Lemma rows_len : length P = length X. Proof. apply combine_length_eq. symmetry. exact Hlen. Qed.
  Lemma rows_pos : (0 < length P)%nat. Proof. rewrite rows_len. exact Hn. Qed.

  Lemma cX_rows x : cX P x = nocc x X.
  Proof. unfold cX, nocc, P. rewrite map_fst_combine by (symmetry; exact Hlen). reflexivity. Qed.
  Lemma cY_rows y : cY P y = nocc y Y.
  Proof. unfold cY, nocc, P. rewrite map_snd_combine by (symmetry; exact Hlen). reflexivity. Qed.

  Lemma MI_plugin_rows : MI_plugin Y X = MIp P.
  Proof.
    unfold MI_plugin, MIp. fold P. rewrite rows_len, <- rsum_scal, <- (sum_nodup pair_dec _ P).
    apply rsum_ext_in. intros [x y] _. cbn [fst snd]. rewrite cX_rows, cY_rows. unfold cXY, nocc2, len. fold P.
    unfold Rdiv. ring.
  Qed.

  Lemma Hcond_rows : Hcond Y X = Hcond_p P.
  Proof.
    unfold Hcond, Hcond_p. fold P. rewrite rows_len, <- (sum_nodup pair_dec _ P).
    apply rsum_ext_in. intros [x y] _. cbn [fst snd]. rewrite cX_rows. unfold cXY, nocc2, len. fold P.
    unfold Rdiv. ring.
  Qed.

  Lemma H_rows : H Y = Hfull_p P.
  Proof.
    unfold H, Hfull_p. rewrite rows_len, <- (rsum_map snd (fun y => - / INR (length X) * ln (cY P y / INR (length X))) P).
    unfold P at 2. rewrite map_snd_combine by (symmetry; exact Hlen). rewrite <- (sum_nodup Z.eq_dec _ Y).
    apply rsum_ext_in. intros y _. rewrite cY_rows. unfold nocc, len. rewrite Hlen.
    unfold Rdiv. ring.
  Qed.
End Bridge.

Theorem core_false_is_plugin Y X : length Y = length X -> (0 < length X)%nat ->
  eval_R (core Y X false) = MI_plugin Y X.
Proof. intros Hlen Hn. rewrite (eval_core_false Y X Hlen Hn), (MI_plugin_rows Y X Hlen). reflexivity. Qed.

(* the flag compute_entropies sees: the given one, switched off on an element-wise identical pair *)
Theorem selfpair_exact Y X c : entry Y X c = core Y X (c && negb (veq Y X)).
Proof. unfold entry. rewrite (veq_sym X Y). destruct (veq Y X), c; reflexivity. Qed.

Lemma entry_diag Y c : entry Y Y c = core Y Y false.
Proof. rewrite selfpair_exact, veq_refl, andb_false_r. reflexivity. Qed.

Theorem plugin_identity Y X : length Y = length X -> (0 < length X)%nat ->
  eval_R (entry Y X false) = MI_plugin Y X.
Proof. intros. rewrite selfpair_exact. apply core_false_is_plugin; assumption. Qed.

Theorem plugin_symm Y X : length Y = length X -> MI_plugin Y X = MI_plugin X Y.
Proof.
  intros Hlen. rewrite (MI_plugin_rows Y X Hlen), (MI_plugin_rows X Y (eq_sym Hlen)).
  rewrite (combine_swap X Y). symmetry. apply MIp_symm.
Qed.

Theorem entry_symm Y X : length Y = length X -> (0 < length X)%nat ->
  eval_R (entry Y X false) = eval_R (entry X Y false).
Proof.
  intros Hlen Hn. rewrite !plugin_identity; auto; try lia. apply plugin_symm; assumption.
Qed.

Theorem plugin_nonneg Y X : length Y = length X -> (0 < length X)%nat -> 0 <= MI_plugin Y X.
Proof. intros Hlen Hn. rewrite (MI_plugin_rows Y X Hlen). apply MIp_ge_0, rows_pos; assumption. Qed.

(* chain rule, the form in which the code computes it *)
Theorem plugin_chain Y X : length Y = length X -> (0 < length X)%nat -> MI_plugin Y X = H Y - Hcond Y X.
Proof.
  intros Hlen Hn.
  rewrite (MI_plugin_rows Y X Hlen), (H_rows Y X Hlen), (Hcond_rows Y X Hlen).
  apply MIp_decomp, rows_pos; assumption.
Qed.

Theorem Hcond_nonneg Y X : length Y = length X -> (0 < length X)%nat -> 0 <= Hcond Y X.
Proof. intros Hlen Hn. rewrite (Hcond_rows Y X Hlen). apply Hcond_p_nonneg, rows_pos; assumption. Qed.

Theorem plugin_le_HY Y X : length Y = length X -> (0 < length X)%nat -> MI_plugin Y X <= H Y.
Proof. intros Hlen Hn. rewrite (plugin_chain Y X Hlen Hn). pose proof (Hcond_nonneg Y X Hlen Hn). lra. Qed.

Theorem plugin_le_min Y X : length Y = length X -> (0 < length X)%nat -> MI_plugin Y X <= Rmin (H Y) (H X).
Proof.
  intros Hlen Hn. apply Rmin_glb.
  - apply plugin_le_HY; assumption.
  - rewrite plugin_symm by assumption. apply plugin_le_HY; [auto|lia].
Qed.

(* self pair: every row is (y, y), so n_xy = n_x and H(Y|Y) = 0 *)
Lemma Hcond_diag Y : Hcond_p (combine Y Y) = 0.
Proof.
  rewrite combine_diag. unfold Hcond_p. apply rsum_zero. intros [x y] Hin. cbn [fst snd].
  destruct (occ_pos _ x y Hin) as (_ & H2 & _).
  apply in_map_iff in Hin. destruct Hin as [z [E _]]. injection E as <- <-.
  unfold cXY, cX in *. rewrite map_map in *. cbn [fst] in *. rewrite map_id in *.
  rewrite (count_occ_map_inj_on Z.eq_dec pair_dec (fun y : Z => (y, y)) Y z) by (intros a _ E; now injection E).
  unfold Rdiv. rewrite Rinv_r by lra. rewrite ln_1. ring.
Qed.

Theorem plugin_self Y : (0 < length Y)%nat -> MI_plugin Y Y = H Y.
Proof.
  intros Hn. rewrite (plugin_chain Y Y eq_refl Hn), (Hcond_rows Y Y eq_refl), Hcond_diag. lra.
Qed.

(* constant vectors: H = 0, and 0 <= I <= H *)
Lemma constant_repeat a (l : list Z) : constant a l -> l = repeat a (length l).
Proof. intros Hc. rewrite <- (map_id l) at 1. apply map_const_repeat. exact Hc. Qed.

Lemma H_const Y a : (0 < length Y)%nat -> constant a Y -> H Y = 0.
Proof.
  intros Hn Hc. unfold H. apply rsum_zero. intros y Hy. apply nodup_In in Hy. rewrite (Hc y Hy).
  assert (E : count_occ Z.eq_dec Y a = length Y)
    by (rewrite (constant_repeat a Y Hc) at 1; apply count_occ_repeat_eq; reflexivity).
  unfold nocc, len. rewrite E.
  replace (INR (length Y) / INR (length Y)) with 1 by (field; apply not_0_INR; lia). rewrite ln_1. ring.
Qed.

Theorem plugin_const_l Y X a : length Y = length X -> (0 < length X)%nat -> constant a Y -> MI_plugin Y X = 0.
Proof.
  intros Hlen Hn Hc. pose proof (plugin_nonneg Y X Hlen Hn). pose proof (plugin_le_HY Y X Hlen Hn) as Hle.
  rewrite (H_const Y a) in Hle by (rewrite ?Hlen; assumption). lra.
Qed.

Theorem plugin_const_r Y X a : length Y = length X -> (0 < length X)%nat -> constant a X -> MI_plugin Y X = 0.
Proof.
  intros Hlen Hn Hc. rewrite plugin_symm by assumption. apply (plugin_const_l X Y a); auto; lia.
Qed.

(* the same facts about the score eval_R (entry Y X false) itself, the form in which properties.jsonl states them *)
Theorem score_nonneg Y X : length Y = length X -> (0 < length X)%nat -> 0 <= eval_R (entry Y X false).
Proof. intros. rewrite plugin_identity by assumption. apply plugin_nonneg; assumption. Qed.

Theorem score_const_l Y X a : length Y = length X -> (0 < length X)%nat -> constant a Y -> eval_R (entry Y X false) = 0.
Proof. intros. rewrite plugin_identity by assumption. apply (plugin_const_l Y X a); assumption. Qed.

Theorem score_const_r Y X a : length Y = length X -> (0 < length X)%nat -> constant a X -> eval_R (entry Y X false) = 0.
Proof. intros. rewrite plugin_identity by assumption. apply (plugin_const_r Y X a); assumption. Qed.

Theorem score_le_min Y X : length Y = length X -> (0 < length X)%nat -> eval_R (entry Y X false) <= Rmin (H Y) (H X).
Proof. intros. rewrite plugin_identity by assumption. apply plugin_le_min; assumption. Qed.

Theorem score_self Y : (0 < length Y)%nat -> eval_R (entry Y Y false) = H Y.
Proof. intros. rewrite plugin_identity by auto. apply plugin_self; assumption. Qed.

Lemma inj_on_incl (f : Z -> Z) l l' : incl l' l -> inj_on f l -> inj_on f l'.
Proof. intros Hi Hf a b Ha Hb. apply Hf; apply Hi; assumption. Qed.

Section RelabelRows.
  Variables f g : Z -> Z.
  Variables X Y : list Z.
  Hypothesis Hlen : length Y = length X.
  Hypothesis Hg : inj_on g X.
  Hypothesis Hf : inj_on f Y.

  Lemma MIp_relabel_rows : MIp (combine (map g X) (map f Y)) = MIp (combine X Y).
  Proof.
    rewrite combine_map_both. apply (MIp_relabel f g).
    - rewrite map_fst_combine by (symmetry; exact Hlen). exact Hg.
    - rewrite map_snd_combine by (symmetry; exact Hlen). exact Hf.
  Qed.

  Lemma Hcond_p_relabel_rows : Hcond_p (combine (map g X) (map f Y)) = Hcond_p (combine X Y).
  Proof.
    rewrite combine_map_both. apply (Hcond_p_relabel f g).
    - rewrite map_fst_combine by (symmetry; exact Hlen). exact Hg.
    - rewrite map_snd_combine by (symmetry; exact Hlen). exact Hf.
  Qed.
End RelabelRows.

Lemma displace_map f g Y X : length Y = length X -> inj_on g X ->
  displace (map f Y) (map g X) = map f (displace Y X).
Proof.
  intros Hlen Hg. unfold displace. rewrite map_length, map_map. apply map_ext_in. intros i Hi.
  apply in_seq in Hi. assert (Hi' : (i < length X)%nat) by lia.
  rewrite (nth_map_lt g X i 0%Z 0%Z Hi').
  rewrite (count_map_inj g X (nth i X 0%Z) Hg (nth_In X 0%Z Hi')).
  apply nth_map_lt. apply Nat.mod_upper_bound. lia.
Qed.

Theorem core_relabel f g Y X c : length Y = length X -> (0 < length X)%nat -> inj_on f Y -> inj_on g X ->
  eval_R (core (map f Y) (map g X) c) = eval_R (core Y X c).
Proof.
  intros Hlen Hn Hf Hg.
  assert (Hlen' : length (map f Y) = length (map g X)) by (rewrite !map_length; exact Hlen).
  assert (Hn' : (0 < length (map g X))%nat) by (rewrite map_length; exact Hn).
  destruct c.
  - rewrite (eval_core_true _ _ Hlen' Hn'), (eval_core_true _ _ Hlen Hn), (displace_map f g Y X Hlen Hg).
    rewrite !Hcond_p_relabel_rows; try assumption; [reflexivity| |].
    + rewrite displace_length. exact Hlen.
    + exact (inj_on_incl f Y _ (displace_incl Y X) Hf).
  - rewrite (eval_core_false _ _ Hlen' Hn'), (eval_core_false _ _ Hlen Hn). apply MIp_relabel_rows; assumption.
Qed.

Theorem entry_relabel f g Y X c : length Y = length X -> (0 < length X)%nat -> inj_on f Y -> inj_on g X ->
  (c = true -> (Y = X <-> map f Y = map g X)) ->
  eval_R (entry (map f Y) (map g X) c) = eval_R (entry Y X c).
Proof.
  intros Hlen Hn Hf Hg Hiff. rewrite !selfpair_exact.
  assert (E : c && negb (veq (map f Y) (map g X)) = c && negb (veq Y X)).
  { destruct c; [|reflexivity]. cbn [andb]. f_equal.
    apply eq_true_iff_eq. rewrite !veq_spec. symmetry. exact (Hiff eq_refl). }
  rewrite E. apply core_relabel; assumption.
Qed.

Lemma core_relabel_X g Y X c : length Y = length X -> (0 < length X)%nat -> inj_on g X ->
  eval_R (core Y (map g X) c) = eval_R (core Y X c).
Proof.
  intros Hlen Hn Hg. rewrite <- (map_id Y) at 1. apply core_relabel; try assumption. intros a b _ _ E. exact E.
Qed.

Theorem core_true_identity Y X : length Y = length X -> (0 < length X)%nat ->
  eval_R (core Y X true) = Hcond (displace Y X) X - Hcond Y X.
Proof.
  intros Hlen Hn.
  assert (Hds : length (displace Y X) = length X) by (rewrite displace_length; exact Hlen).
  rewrite (eval_core_true _ _ Hlen Hn), (Hcond_rows _ _ Hds), (Hcond_rows _ _ Hlen). reflexivity.
Qed.

Theorem corrected_identity Y X : length Y = length X -> (0 < length X)%nat -> Y <> X ->
  eval_R (entry Y X true) = Hcond (displace Y X) X - Hcond Y X.
Proof.
  intros Hlen Hn Hne. rewrite selfpair_exact, (veq_false Y X Hne). cbn [andb negb].
  apply core_true_identity; assumption.
Qed.

Theorem corrected_self Y : (0 < length Y)%nat -> eval_R (entry Y Y true) = H Y.
Proof. intros Hn. rewrite entry_diag, core_false_is_plugin by auto. apply plugin_self. exact Hn. Qed.

Lemma displace_const a Y X : constant a Y -> displace Y X = Y.
Proof.
  intros Hc. rewrite (constant_repeat a Y Hc) at 2.
  rewrite (constant_repeat a (displace Y X)).
  - rewrite displace_length. reflexivity.
  - intros v Hv. apply Hc. apply (displace_incl Y X). exact Hv.
Qed.

Theorem corrected_const Y X a : length Y = length X -> (0 < length X)%nat -> constant a Y ->
  eval_R (entry Y X true) = 0.
Proof.
  intros Hlen Hn Hc. rewrite selfpair_exact. destruct (veq Y X) eqn:E; cbn [andb negb].
  - rewrite core_false_is_plugin by assumption. apply (plugin_const_l Y X a); assumption.
  - rewrite core_true_identity by assumption. rewrite (displace_const a Y X Hc). ring.
Qed.

Lemma shift_mod_inj (n k a b : nat) : (a < n)%nat -> (b < n)%nat -> ((a + k) mod n = (b + k) mod n)%nat -> a = b.
Proof.
  intros Ha Hb E. assert (Hn : n <> 0%nat) by lia.
  pose proof (Nat.div_mod (a + k) n Hn) as Da. pose proof (Nat.div_mod (b + k) n Hn) as Db.
  rewrite E in Da. set (qa := ((a + k) / n)%nat) in *. set (qb := ((b + k) / n)%nat) in *.
  set (r := ((b + k) mod n)%nat) in *.
  assert (qa = qb) by nia. subst qa. nia.
Qed.

Lemma alldistinct_joint Y X : length Y = length X -> NoDup Y ->
  forall x y, In (x, y) (combine X Y) -> count_occ pair_dec (combine X Y) (x, y) = 1%nat.
Proof.
  intros Hlen Hnd x y Hin.
  pose proof (count_pair_le_snd (combine X Y) x y) as Hle. rewrite map_snd_combine in Hle by (symmetry; exact Hlen).
  pose proof (proj1 (NoDup_count_occ Z.eq_dec Y) Hnd y).
  assert ((1 <= count_occ pair_dec (combine X Y) (x, y))%nat) by (apply count_occ_In; exact Hin). lia.
Qed.

(* within the rows of one value of X the displacement reads Y at positions shifted cyclically by one fixed amount,
   so without repetitions in Y it reads pairwise different values *)
Lemma shifted_reads_nodup Y X v k : length Y = length X -> NoDup Y ->
  NoDup (map (fun el => nth ((el + k) mod length Y) Y 0%Z) (where_eq 0 v X)).
Proof.
  intros Hlen Hnd. apply NoDup_map_inj_on; [|apply where_nodup].
  intros a b Ha Hb Eab. apply where_bounds in Ha. apply where_bounds in Hb.
  apply (shift_mod_inj (length Y) k); try lia.
  apply (proj1 (NoDup_nth Y 0%Z) Hnd); try (apply Nat.mod_upper_bound; lia). exact Eab.
Qed.

Lemma displaced_count Y X x y : length Y = length X ->
  count_occ pair_dec (combine X (displace Y X)) (x, y)
  = count_occ Z.eq_dec (map (fun el => nth ((el + count_occ Z.eq_dec X x) mod length Y) Y 0%Z) (where_eq 0 x X)) y.
Proof. intros Hlen. symmetry. exact (spoof_counts X Y x y (eq_sym Hlen)). Qed.

Lemma alldistinct_displaced Y X : length Y = length X -> NoDup Y ->
  forall x y, In (x, y) (combine X (displace Y X)) -> count_occ pair_dec (combine X (displace Y X)) (x, y) = 1%nat.
Proof.
  intros Hlen Hnd x y Hin. apply (count_occ_In pair_dec) in Hin. rewrite displaced_count in * by exact Hlen.
  pose proof (proj1 (NoDup_count_occ Z.eq_dec _) (shifted_reads_nodup Y X x (count_occ Z.eq_dec X x) Hlen Hnd) y). lia.
Qed.

(* when every occurring pair has multiplicity one, H(.|X) depends on X only *)
Lemma Hcond_p_joint_one (P : list (Z * Z)) :
  (forall x y, In (x, y) P -> count_occ pair_dec P (x, y) = 1%nat) ->
  Hcond_p P = rsum (fun x => - / INR (length P) * ln (1 / INR (count_occ Z.eq_dec (map fst P) x))) (map fst P).
Proof.
  intros H1. unfold Hcond_p. rewrite rsum_map. apply rsum_ext_in. intros [x y] Hin. cbn [fst snd].
  unfold cXY, cX. rewrite (H1 x y Hin). reflexivity.
Qed.

Theorem corrected_alldistinct Y X : length Y = length X -> (0 < length X)%nat -> NoDup Y -> Y <> X ->
  eval_R (entry Y X true) = 0.
Proof.
  intros Hlen Hn Hnd Hne. rewrite (corrected_identity Y X Hlen Hn Hne).
  assert (Hds : length (displace Y X) = length X) by (rewrite displace_length; exact Hlen).
  rewrite (Hcond_rows _ _ Hds), (Hcond_rows _ _ Hlen).
  rewrite (Hcond_p_joint_one _ (alldistinct_joint Y X Hlen Hnd)), (Hcond_p_joint_one _ (alldistinct_displaced Y X Hlen Hnd)).
  rewrite !map_fst_combine, !combine_length_eq by (symmetry; assumption). ring.
Qed.

(* the code before fix d3e3a97 (sum-based self-pair test): the shortcut fires on a non-identical pair and
   invariance under relabelling fails *)

Definition wY : list Z := [0; 1; 0; 1; 2; 2; 0; 1]%Z.
Definition wX : list Z := [1; 0; 1; 0; 2; 2; 1; 0]%Z.

Lemma wcore c :
  core wY wX c = mkT 8 [3; 3; 2]%Z [mkS 3 [0; 3; 0]%Z [2; 0; 1]%Z; mkS 3 [3; 0; 0]%Z [0; 2; 1]%Z; mkS 2 [0; 0; 2]%Z [1; 1; 0]%Z] c.
Proof. vm_compute. reflexivity. Qed.

Lemma witness_gap : eval_R (core wY wX true) < eval_R (core wY wX false).
Proof.
  rewrite !wcore. unfold eval_R, cond_entropy, full_entropy.
  cbn [t_n t_classes t_strata t_corr s_cnt s_real s_spoof rsum fold_right Z.eqb].
  rewrite !ln_div by lra.
  assert (E8 : ln 8 = 3 * ln 2).
  { replace 8 with (2 * (2 * 2)) by lra. rewrite !ln_mult by lra. lra. }
  assert (H43 : ln 3 < 2 * ln 2).
  { replace (2 * ln 2) with (ln 4) by (replace 4 with (2 * 2) by lra; rewrite ln_mult by lra; lra).
    apply ln_increasing; lra. }
  rewrite E8, ln_1. lra.
Qed.

Theorem prefix_refuted :
  exists (Y X : list Z) (g : Z -> Z),
    length Y = length X /\ Y <> X /\ inj_on g X /\
    entry_old Y X true = core Y X false /\                       (* self-pair shortcut taken although Y <> X *)
    entry_old Y (map g X) true = core Y (map g X) true /\        (* ... and not taken after recoding X *)
    eval_R (entry_old Y (map g X) true) < eval_R (entry_old Y X true).
Proof.
  exists wY, wX, (Z.add 10). repeat split.
  - discriminate.
  - intros a b _ _ E. lia.
  - assert (E1 : entry_old wY wX true = core wY wX false) by (vm_compute; reflexivity).
    assert (E2 : entry_old wY (map (Z.add 10) wX) true = core wY (map (Z.add 10) wX) true) by (vm_compute; reflexivity).
    rewrite E1, E2.
    rewrite core_relabel_X; [apply witness_gap|reflexivity|simpl; lia|intros a b _ _ E; lia].
Qed.

(* the repaired entry point treats the same pair as an ordinary one *)
Lemma witness_new : entry wY wX true = core wY wX true.
Proof. vm_compute. reflexivity. Qed.

(* C02 with the flag on holds exactly OFF the diagonal: recoding only one side of an identical pair switches the
   correction back on (the pair is no longer element-wise identical), and the score changes from H(Y) to the corrected one *)

Definition dY : list Z := [0; 1; 0; 1; 2; 2]%Z.

Lemma dY_value c : eval_R (core dY dY c) = if c then ln 2 else ln 3.
Proof.
  assert (Et : core dY dY c = mkT 6 [2; 2; 2]%Z [mkS 2 [2; 0; 0]%Z [1; 0; 1]%Z; mkS 2 [0; 2; 0]%Z [0; 1; 1]%Z; mkS 2 [0; 0; 2]%Z [1; 1; 0]%Z] c)
    by (vm_compute; reflexivity).
  rewrite Et. unfold eval_R, cond_entropy, full_entropy.
  cbn [t_n t_classes t_strata t_corr s_cnt s_real s_spoof rsum fold_right Z.eqb].
  replace (2 / 2) with 1 by lra. rewrite ln_1. destruct c.
  - replace (1 / 2) with (/ 2) by lra. rewrite ln_Rinv by lra. lra.
  - replace (2 / 6) with (/ 3) by lra. rewrite ln_Rinv by lra. lra.
Qed.

Lemma diag_value : eval_R (entry dY dY true) = ln 3.
Proof. rewrite entry_diag. exact (dY_value false). Qed.

Lemma offdiag_value : eval_R (entry dY (map (Z.add 10) dY) true) = ln 2.
Proof.
  change (entry dY (map (Z.add 10) dY) true) with (core dY (map (Z.add 10) dY) true).
  rewrite core_relabel_X; [exact (dY_value true)|reflexivity|cbn; lia|intros a b _ _ E; lia].
Qed.

Theorem diag_relabel_refuted :
  exists (Y : list Z) (g : Z -> Z),
    (0 < length Y)%nat /\ inj_on g Y /\
    eval_R (entry Y Y true) = ln 3 /\ eval_R (entry Y (map g Y) true) = ln 2 /\
    eval_R (entry Y (map g Y) true) < eval_R (entry Y Y true).
Proof.
  exists dY, (Z.add 10). split; [simpl; lia|]. split; [intros a b _ _ E; lia|].
  split; [exact diag_value|]. split; [exact offdiag_value|].
  rewrite diag_value, offdiag_value. apply ln_increasing; lra.
Qed.
