(* What leaves the sums over the rows unchanged: exchanging the two components (MIp_symm) and recoding them by maps
   injective on the values that occur (MIp_relabel, Hcond_p_relabel): every count of an occurring pair is preserved. *)
From Coq Require Import Reals List Lra Lia Arith ZArith Rpower.
From Outrank Require Import Common.ListFacts Common.RSum MI.MIcore.
Import ListNotations.
Open Scope R_scope.

Definition swap (p : Z * Z) : Z * Z := (snd p, fst p).

Lemma count_swap P x y : count_occ pair_dec (map swap P) (y, x) = count_occ pair_dec P (x, y).
Proof.
  apply (count_occ_map_inj_on pair_dec pair_dec swap P (x, y)).
  intros [a b] _ E. cbn [swap fst snd] in E. injection E as -> ->. reflexivity.
Qed.
Lemma map_fst_swap P : map fst (map swap P) = map snd P.
Proof. rewrite map_map. apply map_ext. intros [a b]; reflexivity. Qed.
Lemma map_snd_swap P : map snd (map swap P) = map fst P.
Proof. rewrite map_map. apply map_ext. intros [a b]; reflexivity. Qed.

Theorem MIp_symm P : MIp (map swap P) = MIp P.
Proof.
  unfold MIp. rewrite map_length, rsum_map. f_equal. apply rsum_ext_in. intros [x y] _.
  cbn [swap fst snd]. unfold cXY, cX, cY. rewrite count_swap, map_fst_swap, map_snd_swap.
  apply f_equal. unfold Rdiv. rewrite (Rmult_comm (INR (count_occ Z.eq_dec (map snd P) y))). reflexivity.
Qed.

Lemma count_map_inj (h : Z -> Z) (l : list Z) x :
  (forall a b, In a l -> In b l -> h a = h b -> a = b) -> In x l ->
  count_occ Z.eq_dec (map h l) (h x) = count_occ Z.eq_dec l x.
Proof.
  intros Hinj Hx. apply count_occ_map_inj_on. intros a Ha E. apply Hinj; assumption.
Qed.

Section Relabel.
  Variables f g : Z -> Z.
  (* g recodes the first component (X), f the second (Y), as in core (map f Y) (map g X) *)
  Definition relab (p : Z * Z) := (g (fst p), f (snd p)).
  Variable P : list (Z * Z).
  Hypothesis Hg : forall a b, In a (map fst P) -> In b (map fst P) -> g a = g b -> a = b.
  Hypothesis Hf : forall a b, In a (map snd P) -> In b (map snd P) -> f a = f b -> a = b.

  Lemma relab_counts x y : In (x, y) P ->
    cXY (map relab P) (g x) (f y) = cXY P x y /\ cX (map relab P) (g x) = cX P x /\ cY (map relab P) (f y) = cY P y.
  Proof.
    intros Hin. pose proof (in_map fst P _ Hin) as Hx. pose proof (in_map snd P _ Hin) as Hy. cbn [fst snd] in Hx, Hy.
    assert (Efst : map fst (map relab P) = map g (map fst P)) by (rewrite !map_map; reflexivity).
    assert (Esnd : map snd (map relab P) = map f (map snd P)) by (rewrite !map_map; reflexivity).
    unfold cXY, cX, cY. rewrite Efst, Esnd. repeat split; f_equal.
    - apply (count_occ_map_inj_on pair_dec pair_dec relab P (x, y)).
      intros [x' y'] Hin' E. injection E as Ex Ey. f_equal.
      + apply Hg; [exact (in_map fst P _ Hin')|exact Hx|exact Ex].
      + apply Hf; [exact (in_map snd P _ Hin')|exact Hy|exact Ey].
    - apply count_map_inj; assumption.
    - apply count_map_inj; assumption.
  Qed.

  Lemma MIp_relabel : MIp (map relab P) = MIp P.
  Proof.
    unfold MIp. rewrite map_length, rsum_map. f_equal. apply rsum_ext_in. intros [x y] Hin.
    cbn [relab fst snd]. destruct (relab_counts x y Hin) as (-> & -> & ->). reflexivity.
  Qed.

  Lemma Hcond_p_relabel : Hcond_p (map relab P) = Hcond_p P.
  Proof.
    unfold Hcond_p. rewrite map_length, rsum_map. apply rsum_ext_in. intros [x y] Hin.
    cbn [relab fst snd]. destruct (relab_counts x y Hin) as (-> & -> & _). reflexivity.
  Qed.
End Relabel.
