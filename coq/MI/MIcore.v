(* Plug-in mutual information of a list P of (x, y) pairs, three ways: as the code computes it from counts over lists of
   candidate values (Hfull_c - Hcond_c), as sums over the rows of P (Hfull_p - Hcond_p), and as the single sum MIp; the
   three agree (Hfull_c_rows, Hcond_c_rows, MIp_decomp).  Closed signatures: cX P x, cY P y, cXY P x y, MIp P, Hfull_p P,
   Hcond_p P, Hfull_c P UY, stratum_c P UY v, Hcond_c P UX UY. *)
From Coq Require Import Reals List Lra Lia Arith ZArith Rpower.
From Outrank Require Import Common.ListFacts Common.RSum.
Import ListNotations.
Open Scope R_scope.

Definition pair_dec : forall a b : Z * Z, {a = b} + {a <> b}.
Proof. decide equality; apply Z.eq_dec. Defined.

Lemma incl_prod (P : list (Z * Z)) UX UY : incl (map fst P) UX -> incl (map snd P) UY -> incl P (list_prod UX UY).
Proof.
  intros HX HY [x y] Hin. apply in_prod_iff. split.
  - apply HX. exact (in_map fst P (x, y) Hin).
  - apply HY. exact (in_map snd P (x, y) Hin).
Qed.

Lemma ln_div a b : 0 < a -> 0 < b -> ln (a / b) = ln a - ln b.
Proof. intros Ha Hb. unfold Rdiv. rewrite ln_mult, ln_Rinv by (try apply Rinv_0_lt_compat; assumption). lra. Qed.

Lemma count_pair_le_fst (P : list (Z*Z)) x y : (count_occ pair_dec P (x, y) <= count_occ Z.eq_dec (map fst P) x)%nat.
Proof. exact (count_occ_map_le pair_dec Z.eq_dec fst P (x, y)). Qed.
Lemma count_pair_le_snd (P : list (Z*Z)) x y : (count_occ pair_dec P (x, y) <= count_occ Z.eq_dec (map snd P) y)%nat.
Proof. exact (count_occ_map_le pair_dec Z.eq_dec snd P (x, y)). Qed.

Section MI.
  Variable P : list (Z * Z).
  Let X := map fst P.
  Let Y := map snd P.
  Let n := INR (length P).
  Definition cX x := INR (count_occ Z.eq_dec X x).
  Definition cY y := INR (count_occ Z.eq_dec Y y).
  Definition cXY x y := INR (count_occ pair_dec P (x, y)).

  Definition MIp : R := / n * rsum (fun xy => ln (n * cXY (fst xy) (snd xy) / (cX (fst xy) * cY (snd xy)))) P.

  (* the same quantities as sums over the rows: H(Y) and H(Y|X) *)
  Definition Hfull_p : R := rsum (fun xy => - / n * ln (cY (snd xy) / n)) P.
  Definition Hcond_p : R := rsum (fun xy => - / n * ln (cXY (fst xy) (snd xy) / cX (fst xy))) P.

  Lemma occ_pos x y : In (x, y) P ->
    0 < cXY x y /\ 0 < cX x /\ 0 < cY y /\ cXY x y <= cX x /\ cXY x y <= cY y.
  Proof.
    intros Hin.
    assert ((1 <= count_occ pair_dec P (x, y))%nat) by (apply count_occ_In; exact Hin).
    pose proof (count_pair_le_fst P x y). pose proof (count_pair_le_snd P x y).
    unfold cXY, cX, cY, X, Y. repeat split; try (apply lt_0_INR; lia); apply le_INR; assumption.
  Qed.

  Variables UX UY : list Z.
  Hypothesis HndX : NoDup UX.
  Hypothesis HndY : NoDup UY.
  Hypothesis HinX : incl X UX.
  Hypothesis HinY : incl Y UY.

  (* what the numba code computes, expressed on the counts it feeds to log *)
  Definition Hfull_c : R := rsum (fun c => - (cY c / n) * ln (cY c / n)) UY.
  Definition stratum_c (v : Z) : R :=
    if Nat.eqb (count_occ Z.eq_dec X v) 1 then 0 else
    rsum (fun c => if Nat.eqb (count_occ pair_dec P (v, c)) 0 then 0
                   else (cX v / n) * (cXY v c / cX v) * (- ln (cXY v c / cX v))) UY.
  Definition Hcond_c : R := rsum stratum_c UX.

  Hypothesis Hn : (0 < length P)%nat.
  Lemma n_pos : 0 < n. Proof. unfold n. apply lt_0_INR. exact Hn. Qed.

  Lemma MIp_decomp : MIp = Hfull_p - Hcond_p.
  Proof.
    pose proof n_pos as Hp.
    unfold Hfull_p, Hcond_p, MIp. rewrite <- rsum_minus, <- rsum_scal.
    apply rsum_ext_in. intros [x y] Hin. cbn [fst snd].
    destruct (occ_pos x y Hin) as (Hxy & Hx & Hy & _).
    rewrite !ln_div by (try apply Rmult_lt_0_compat; assumption).
    rewrite !ln_mult by assumption. lra.
  Qed.

  Lemma Hfull_c_rows : Hfull_c = Hfull_p.
  Proof.
    unfold Hfull_c, Hfull_p. pose proof n_pos as Hp.
    rewrite <- (rsum_map snd (fun y => - / n * ln (cY y / n)) P). fold Y.
    rewrite <- (sum_by_value Z.eq_dec _ Y UY HndY HinY).
    apply rsum_ext_in. intros c _. unfold cY. field. lra.
  Qed.

  Lemma stratum_inner v :
    stratum_c v = rsum (fun c => cXY v c * (- / n * ln (cXY v c / cX v))) UY.
  Proof.
    pose proof n_pos as Hp. unfold stratum_c.
    destruct (Nat.eqb (count_occ Z.eq_dec X v) 1) eqn:E1.
    - apply Nat.eqb_eq in E1. symmetry. apply rsum_zero. intros c _.
      pose proof (count_pair_le_fst P v c) as Hle. fold X in Hle. unfold cXY, cX. rewrite E1 in *.
      destruct (count_occ pair_dec P (v, c)) as [|[|k]] eqn:E2; try lia.
      + simpl. lra.
      + simpl. replace (1 / 1) with 1 by field. rewrite ln_1. lra.
    - apply rsum_ext_in. intros c _.
      destruct (Nat.eqb (count_occ pair_dec P (v, c)) 0) eqn:E2.
      + apply Nat.eqb_eq in E2. unfold cXY. rewrite E2. simpl. lra.
      + apply Nat.eqb_neq in E2. pose proof (count_pair_le_fst P v c) as Hle. fold X in Hle.
        assert (0 < cX v) by (unfold cX; apply lt_0_INR; lia).
        field. split; lra.
  Qed.

  Lemma Hcond_c_rows : Hcond_c = Hcond_p.
  Proof.
    unfold Hcond_c, Hcond_p. erewrite rsum_ext_in by (intros v _; apply stratum_inner).
    rewrite (rsum_list_prod (fun v c => cXY v c * (- / n * ln (cXY v c / cX v))) UX UY).
    rewrite <- (sum_by_value pair_dec (fun xy => - / n * ln (cXY (fst xy) (snd xy) / cX (fst xy))) P (list_prod UX UY)).
    - apply rsum_ext_in. intros [x y] _. reflexivity.
    - apply NoDup_prod; assumption.
    - apply incl_prod; assumption.
  Qed.

  Theorem model_is_plugin : Hfull_c - Hcond_c = MIp.
  Proof. rewrite Hfull_c_rows, Hcond_c_rows. symmetry. exact MIp_decomp. Qed.
End MI.
Print Assumptions model_is_plugin.
