(* C04 — lemmas about the model MI/Subsample.v.  Everything is over lists, nat, Z, Q: no axioms. *)
From Coq Require Import List Arith ZArith QArith Bool Lia Sorted.
From Outrank Require MI.Model.
From Outrank Require Import Common.ListFacts MI.Unique MI.Subsample.
Import ListNotations.
Local Close Scope Q_scope.

Lemma mapM_ok {A B} (f : A -> result B) (h : A -> B) (l : list A) :
  (forall a, In a l -> f a = Ok (h a)) -> mapM f l = Ok (map h l).
Proof.
  induction l as [|a t IH]; intros H; cbn [mapM map]; [reflexivity|].
  rewrite (H a) by (left; reflexivity). cbn [bind].
  rewrite IH by (intros b Hb; apply H; right; exact Hb). reflexivity.
Qed.

Lemma mapM_map {A B C} (f : B -> result C) (g : A -> B) l : mapM f (map g l) = mapM (fun a => f (g a)) l.
Proof. induction l as [|a t IH]; cbn [map mapM]; [reflexivity|]. rewrite IH. reflexivity. Qed.

Lemma rows_all (A : list Z) : rows A (seq 0 (length A)) = A.
Proof. apply map_nth_seq. Qed.

(* this transcription computes the functions of MI/Model.v: np.where and the counting are the same, and
   numba_unique is the graph of the multiplicity over the increasing list of distinct values *)

Lemma where_agree X v : forall k, where_from k X v = Model.where_eq k v X.
Proof. induction X as [|x t IH]; intros k; cbn [where_from Model.where_eq]; [reflexivity|]. rewrite !IH. reflexivity. Qed.

Lemma count_eq_count l c : count_eq l c = count_occ Z.eq_dec l c.
Proof.
  unfold count_eq. induction l as [|x t IH]; cbn [filter count_occ]; [reflexivity|].
  destruct (Z.eqb_spec c x), (Z.eq_dec x c); try congruence; cbn [length]; rewrite IH; reflexivity.
Qed.

(* inserting x into the graph of f over a sorted list gives the graph of f with the value at x raised by one *)
Lemma insert_count_graph (f f' : Z -> nat) x l :
  StronglySorted Z.lt l -> (~ In x l -> f x = 0) -> f' x = S (f x) -> (forall v, v <> x -> f' v = f v) ->
  insert_count x (map (fun v => (v, f v)) l) = map (fun v => (v, f' v)) (Model.zinsert x l).
Proof.
  intros Hs H0 Hx Hne.
  assert (Hext : forall r, ~ In x r -> map (fun v => (v, f v)) r = map (fun v => (v, f' v)) r).
  { intros r Hr. apply map_ext_in. intros v Hv. rewrite Hne; [reflexivity|]. intros ->. contradiction. }
  induction l as [|w r IH]; cbn [map insert_count Model.zinsert].
  - rewrite Hx, H0 by apply in_nil. reflexivity.
  - apply StronglySorted_inv in Hs. destruct Hs as [Hr Hw]. rewrite Forall_forall in Hw.
    assert (Hxr : (x <= w)%Z -> ~ In x r) by (intros L Hin; specialize (Hw x Hin); lia).
    destruct (Z.ltb_spec x w) as [L|L]; [|destruct (Z.eqb_spec x w) as [E|NE]]; cbn [map].
    + assert (Hnin : ~ In x (w :: r)) by (intros [->|Hin]; [lia|apply Hxr in Hin; [exact Hin|lia]]).
      rewrite Hx, (H0 Hnin). f_equal. apply (Hext (w :: r) Hnin).
    + subst w. rewrite Hx. f_equal. apply Hext, Hxr. lia.
    + rewrite (Hne w) by congruence. f_equal. apply IH; [exact Hr|].
      intros Hnin. apply H0. intros [->|Hin]; [congruence|contradiction].
Qed.

Theorem numba_unique_graph a : numba_unique a = map (fun v => (v, count_occ Z.eq_dec a v)) (Model.uvals a).
Proof.
  induction a as [|x t IH]; [reflexivity|]. cbn [numba_unique fold_right Model.uvals].
  fold (numba_unique t). fold (Model.uvals t). rewrite IH. apply insert_count_graph.
  - apply uvals_sorted.
  - intros Hnin. apply count_occ_not_In. intros Hin. apply Hnin, uvals_in, Hin.
  - apply count_occ_cons_eq. reflexivity.
  - intros v Hv. apply count_occ_cons_neq. congruence.
Qed.

Lemma f_values_uvals X : f_values X = Model.uvals X.
Proof. unfold f_values. rewrite numba_unique_graph, map_map. apply map_id. Qed.

Lemma numba_unique_in a v k : In (v, k) (numba_unique a) -> In v a /\ k = count_occ Z.eq_dec a v.
Proof.
  rewrite numba_unique_graph. intros H. apply in_map_iff in H. destruct H as [w [E Hw]]. injection E as <- <-.
  split; [apply uvals_in; exact Hw|reflexivity].
Qed.

Lemma where_eq_spec X v i : In i (where_eq X v) <-> nth_error X i = Some v.
Proof.
  unfold where_eq. rewrite where_agree, where_in, Nat.sub_0_r. split; [intros [_ H]; exact H | intros H; split; [lia|exact H]].
Qed.

Lemma where_eq_bound X v i : In i (where_eq X v) -> i < length X.
Proof. unfold where_eq. rewrite where_agree. intros H. apply where_bounds in H. lia. Qed.

Lemma where_eq_sorted X v : StronglySorted lt (where_eq X v).
Proof. unfold where_eq. rewrite where_agree. apply where_sorted. Qed.

Lemma where_eq_length X v : length (where_eq X v) = count_occ Z.eq_dec X v.
Proof. unfold where_eq. rewrite where_agree. apply where_length. Qed.

Lemma where_eq_nonempty X v : In v X -> where_eq X v <> [].
Proof.
  intros H E. apply (count_occ_In Z.eq_dec) in H. rewrite <- where_eq_length, E in H. inversion H.
Qed.

(* the count stored with a value is the number of rows carrying it *)
Lemma numba_unique_count a v k : In (v, k) (numba_unique a) -> k = length (where_eq a v).
Proof. intros H. rewrite where_eq_length. apply numba_unique_in, H. Qed.

Lemma numba_unique_pos a v k : In (v, k) (numba_unique a) -> 0 < k.
Proof. intros H. apply numba_unique_in in H. destruct H as [Hin ->]. apply count_occ_In, Hin. Qed.

Lemma f_values_sorted X : StronglySorted Z.lt (f_values X).
Proof. rewrite f_values_uvals. apply uvals_sorted. Qed.

Lemma f_values_In X v : In v (f_values X) <-> In v X.
Proof. rewrite f_values_uvals. apply uvals_in. Qed.

Lemma f_values_length X : length (f_values X) <= length X.
Proof. rewrite f_values_uvals. apply uvals_length. Qed.

Lemma f_values_nonempty X : X <> [] -> 1 <= length (f_values X).
Proof.
  intros NE. destruct X as [|x t]; [congruence|].
  assert (H : In x (f_values (x :: t))) by (apply f_values_In; left; reflexivity).
  destruct (f_values (x :: t)); [destruct H|cbn [length]; lia].
Qed.

Definition sel (X : list Z) (q : nat) (fvals : list Z) : list nat :=
  concat (map (fun v => firstn q (where_eq X v)) fvals).

Lemma sel_length X q fvals : length (sel X q fvals) <= q * length fvals.
Proof.
  unfold sel. induction fvals as [|v t IH]; cbn [map concat length]; [lia|].
  rewrite app_length. pose proof (firstn_le_length q (where_eq X v)). lia.
Qed.

Lemma sel_bound X q fvals i : In i (sel X q fvals) -> i < length X.
Proof.
  unfold sel. intros H. apply in_concat in H. destruct H as [l [H1 H2]].
  apply in_map_iff in H1. destruct H1 as [v [E _]]. subst l.
  apply In_firstn_In in H2. apply where_eq_bound in H2. exact H2.
Qed.

Lemma write_ok buf off xs : off + length xs <= length buf ->
  write buf off xs = Ok (firstn off buf ++ map Written xs ++ skipn (off + length xs) buf).
Proof. intros H. unfold write. apply Nat.leb_le in H. rewrite H. reflexivity. Qed.

(* loop invariant: after the loop the first [off'] cells are exactly the selected positions, written *)
Lemma fill_spec X q : forall fvals buf off,
  off + length (sel X q fvals) <= length buf ->
  exists buf', fill X q fvals buf off = Ok (buf', off + length (sel X q fvals)) /\
               length buf' = length buf /\
               firstn (off + length (sel X q fvals)) buf' = firstn off buf ++ map Written (sel X q fvals).
Proof.
  induction fvals as [|v t IH]; intros buf off H.
  - exists buf. cbn [fill sel map concat length]. rewrite Nat.add_0_r, app_nil_r. auto.
  - cbn [fill]. set (xs := firstn q (where_eq X v)).
    assert (E : sel X q (v :: t) = xs ++ sel X q t) by reflexivity.
    rewrite E in *. rewrite app_length in *.
    rewrite write_ok by lia. cbn [bind].
    set (buf1 := firstn off buf ++ map Written xs ++ skipn (off + length xs) buf).
    assert (L1 : length buf1 = length buf) by (apply splice_length; [symmetry; apply map_length|lia]).
    destruct (IH buf1 (off + length xs)) as [buf' [F1 [F2 F3]]]; [lia|].
    exists buf'. rewrite Nat.add_assoc. split; [exact F1|]. split; [lia|].
    rewrite F3. unfold buf1. rewrite splice_prefix by (try (symmetry; apply map_length); lia).
    rewrite map_app, app_assoc. reflexivity.
Qed.

Lemma read_buffer_written g xs : read_buffer g (map Written xs) = map Z.of_nat xs.
Proof. unfold read_buffer. generalize 0. induction xs as [|x t IH]; intros k; [reflexivity|]. cbn. f_equal. apply IH. Qed.

Lemma get_row_ok A i : i < length A -> get_row A (Z.of_nat i) = Ok (nth i A 0%Z).
Proof.
  intros H. unfold get_row.
  assert (C : ((0 <=? Z.of_nat i) && (Z.of_nat i <? Z.of_nat (length A)))%Z = true).
  { apply andb_true_intro. split; [apply Z.leb_le|apply Z.ltb_lt]; lia. }
  rewrite C, Nat2Z.id, (nth_error_nth' A 0%Z H). reflexivity.
Qed.

Lemma gather_ok A xs : (forall i, In i xs -> i < length A) ->
  mapM (get_row A) (map Z.of_nat xs) = Ok (rows A xs).
Proof. intros H. rewrite mapM_map. unfold rows. apply mapM_ok. intros i Hi. apply get_row_ok, H, Hi. Qed.

(* the repaired sampler, for any list of stratum values: exactly the selected rows, never an error,
   no mention of g *)
Definition sel_indices (X : list Z) (r : Q) (fvals : list Z) : list nat :=
  let q := final_space_size r (length X) / length fvals in
  if q =? 0 then seq 0 (length X) else sel X q fvals.

(* floor(fs / k) * k <= fs, so the loop on the fresh buffer never writes outside it, and the slice
   final_index_array[:index_offset] holds the selected positions and nothing else *)
Lemma index_buffer_spec X r fvals : final_space_size r (length X) / length fvals <> 0 ->
  index_buffer Repaired X r fvals = Ok (map Written (sel X (final_space_size r (length X) / length fvals) fvals)).
Proof.
  intros Q. unfold index_buffer. set (fs := final_space_size r (length X)) in *. set (q := fs / length fvals) in *.
  assert (K : length fvals <> 0) by (intros K; apply Q; unfold q; rewrite K; reflexivity).
  pose proof (sel_length X q fvals). pose proof (Nat.mul_div_le fs (length fvals) K).
  destruct (fill_spec X q fvals (repeat Garbage fs) 0) as [buf [F1 [_ F3]]]; [rewrite repeat_length; unfold q in *; lia|].
  cbn [Nat.add firstn app] in F1, F3. rewrite F1. cbn [bind fst snd index_cells]. rewrite F3. reflexivity.
Qed.

Lemma subsample_gen_spec g Y X r fvals : length Y = length X ->
  subsample_gen Repaired g Y X r fvals = Ok (rows Y (sel_indices X r fvals), rows X (sel_indices X r fvals)).
Proof.
  intros L. unfold subsample_gen, sel_indices.
  destruct (Nat.eqb_spec (final_space_size r (length X) / length fvals) 0) as [Q|Q].
  - rewrite rows_all. rewrite <- L, rows_all. reflexivity.
  - rewrite (index_buffer_spec X r fvals Q). cbn [bind]. rewrite read_buffer_written.
    rewrite gather_ok by (intros i Hi; eapply sel_bound; exact Hi). cbn [bind].
    rewrite gather_ok by (intros i Hi; rewrite L; eapply sel_bound; exact Hi). reflexivity.
Qed.

Lemma sel_indices_sampled X r : sel_indices X r (f_values X) = sampled_indices X r.
Proof. reflexivity. Qed.

Lemma subsample_spec g Y X r : length Y = length X ->
  subsample g Y X r = Ok (rows Y (sampled_indices X r), rows X (sampled_indices X r)).
Proof. intros L. unfold subsample. rewrite subsample_gen_spec by exact L. reflexivity. Qed.

Lemma subsample_safe g Y X r e : length Y = length X -> subsample g Y X r <> Error e.
Proof. intros L. rewrite subsample_spec by exact L. discriminate. Qed.

Lemma subsample_garbage_indep g1 g2 Y X r : length Y = length X -> subsample g1 Y X r = subsample g2 Y X r.
Proof. intros L. rewrite !subsample_spec by exact L. reflexivity. Qed.

(* the cells subsample_gen reads (index_buffer is the sub-term of its definition that builds them) *)
Lemma index_buffer_written X r : quota X r <> 0 ->
  exists cells, index_buffer Repaired X r (f_values X) = Ok cells /\
                Forall (fun c => exists i, c = Written i /\ i < length X) cells /\
                length cells <= final_space_size r (length X) /\
                forall g, read_buffer g cells = map Z.of_nat (sampled_indices X r).
Proof.
  intros Q. exists (map Written (sel X (quota X r) (f_values X))).
  split; [exact (index_buffer_spec X r (f_values X) Q)|]. split; [|split].
  - apply Forall_map, Forall_forall. intros i Hi. exists i. split; [reflexivity|]. eapply sel_bound. exact Hi.
  - rewrite map_length. pose proof (sel_length X (quota X r) (f_values X)).
    assert (K : length (f_values X) <> 0) by (intros K; apply Q; unfold quota, quota_of; rewrite K; reflexivity).
    pose proof (Nat.mul_div_le (final_space_size r (length X)) (length (f_values X)) K).
    unfold quota, quota_of in *. lia.
  - intros g. unfold sampled_indices. destruct (Nat.eqb_spec (quota X r) 0) as [Q0|_]; [contradiction|].
    apply read_buffer_written.
Qed.

Lemma sampled_indices_bound X r i : In i (sampled_indices X r) -> i < length X.
Proof.
  unfold sampled_indices. destruct (quota X r =? 0).
  - intros H. apply in_seq in H. lia.
  - apply sel_bound.
Qed.

Lemma sampled_indices_nonempty X r : X <> [] -> sampled_indices X r <> [].
Proof.
  intros NE. unfold sampled_indices. destruct (Nat.eqb_spec (quota X r) 0) as [Q|Q].
  - destruct X; [congruence|]. cbn. discriminate.
  - pose proof (f_values_nonempty X NE) as L. destruct (f_values X) as [|v vs] eqn:E; [inversion L|].
    assert (Hv : In v X) by (apply f_values_In; rewrite E; left; reflexivity).
    apply where_eq_nonempty in Hv. cbn [map concat].
    destruct (where_eq X v) as [|i l]; [congruence|].
    destruct (quota X r); [congruence|]. cbn. discriminate.
Qed.

Lemma get_pos_ok A p : p < length A -> get_pos A p = Ok (nth p A 0%Z).
Proof. intros H. unfold get_pos. rewrite (nth_error_nth' A 0%Z H). reflexivity. Qed.

Lemma stratum_of_ok X' Y' cls v cnt : length X' = length Y' ->
  stratum_of X' Y' cls v cnt = Ok (stratum_spec X' Y' cls v cnt).
Proof.
  intros L. unfold stratum_of, stratum_spec.
  rewrite (mapM_ok (get_pos Y') (fun p => nth p Y' 0%Z)).
  2:{ intros p Hp. apply get_pos_ok. rewrite <- L. eapply where_eq_bound. exact Hp. }
  cbn [bind].
  rewrite (mapM_ok (fun el => get_pos Y' ((el + cnt) mod length Y')) (fun el => nth ((el + cnt) mod length Y') Y' 0%Z)).
  2:{ intros p Hp. apply get_pos_ok. apply where_eq_bound in Hp. apply Nat.mod_upper_bound. lia. }
  cbn [bind]. unfold rows. rewrite map_map. reflexivity.
Qed.

Lemma compute_entropies_ok X' Y' n fv c r : length X' = length Y' ->
  compute_entropies X' Y' n fv c r = Ok (terms_spec X' Y' n fv c r).
Proof.
  intros L. unfold compute_entropies, terms_spec.
  rewrite (mapM_ok _ (fun vc => stratum_spec X' Y' (map fst (numba_unique Y')) (fst vc) (snd vc))).
  2:{ intros vc _. apply stratum_of_ok. exact L. }
  reflexivity.
Qed.

(* the whole estimator: a function of the sampled rows, the original strata sizes, the flag and r *)
Lemma entry_spec g Y X r c : length Y = length X ->
  entry g Y X r c = Ok (terms_spec (rows X (entry_indices X r)) (rows Y (entry_indices X r)) (length X)
                                   (numba_unique X) (c && negb (veq X Y)) r).
Proof.
  intros L. unfold entry, entry_gen, entry_indices. destruct (lt_one r).
  - fold (f_values X). fold (subsample g Y X r). rewrite subsample_spec by exact L. cbn [bind fst snd].
    apply compute_entropies_ok. unfold rows. rewrite !map_length. reflexivity.
  - cbn [bind fst snd]. rewrite rows_all. rewrite <- L at 2. rewrite rows_all.
    apply compute_entropies_ok. symmetry. exact L.
Qed.

Lemma entry_safe g Y X r c e : length Y = length X -> entry g Y X r c <> Error e.
Proof. intros L. rewrite entry_spec by exact L. discriminate. Qed.

Lemma entry_garbage_indep g1 g2 Y X r c : length Y = length X -> entry g1 Y X r c = entry g2 Y X r c.
Proof. intros L. rewrite !entry_spec by exact L. reflexivity. Qed.

Lemma entry_outside_irrelevant g Y Y' X r c :
  length Y = length X -> length Y' = length X ->
  (forall i, In i (entry_indices X r) -> nth i Y 0%Z = nth i Y' 0%Z) ->
  (veq X Y = veq X Y' \/ c = false) ->
  entry g Y X r c = entry g Y' X r c.
Proof.
  intros L L' A F. rewrite !entry_spec by assumption.
  unfold rows. rewrite (map_ext_in _ _ _ A).
  assert (E : c && negb (veq X Y) = c && negb (veq X Y')) by (destruct F as [F|F]; [rewrite F|subst c]; reflexivity).
  rewrite E. reflexivity.
Qed.

(* finiteness: what reaches np.log is positive, what is divided by is non-zero *)

Definition finite_terms (t : terms) : Prop :=
  Forall (fun ab => 0 < fst ab /\ 0 < snd ab) (log_args t) /\ Forall (fun d => 0 < d) (denominators t).

Lemma nonzero_pos (l : list nat) : Forall (fun k => 0 < k) (filter nonzero l).
Proof. apply Forall_forall. intros k Hk. apply filter_In in Hk. destruct Hk as [_ Hk]. destruct k; [discriminate|lia]. Qed.

Lemma terms_spec_finite X' Y' n X c r : 0 < n -> finite_terms (terms_spec X' Y' n (numba_unique X) c r).
Proof.
  intros N.
  assert (SC : Forall (fun s => 0 < s_cnt s) (t_strata (terms_spec X' Y' n (numba_unique X) c r))).
  { cbn [terms_spec t_strata]. apply Forall_map, Forall_forall. intros [v k] H. cbn [stratum_spec s_cnt fst snd].
    apply filter_In in H. eapply numba_unique_pos. apply H. }
  split.
  - unfold log_args. apply Forall_app. split.
    + cbn [terms_spec t_corr t_classes t_n]. destruct c; [constructor|].
      apply Forall_map, Forall_map, Forall_forall. intros [v j] H. cbn [fst snd]. split; [|exact N].
      eapply numba_unique_pos. exact H.
    + apply Forall_flat_map. eapply Forall_impl; [|exact SC]. cbn beta. intros s P.
      assert (F : forall l, Forall (fun ab => 0 < fst ab /\ 0 < snd ab) (map (fun k => (k, s_cnt s)) (filter nonzero l))).
      { intros l. apply Forall_map. eapply Forall_impl; [|apply nonzero_pos]. cbn. intros k Hk. split; assumption. }
      apply Forall_app. split; [apply F|]. destruct (t_corr _); [apply F|constructor].
  - unfold denominators. constructor; [exact N|]. apply Forall_map. exact SC.
Qed.

Lemma entry_finite g Y X r c : length Y = length X -> X <> [] ->
  exists t, entry g Y X r c = Ok t /\ finite_terms t.
Proof.
  intros L NE. rewrite entry_spec by exact L. eexists. split; [reflexivity|].
  apply terms_spec_finite. destruct X; [congruence|cbn; lia].
Qed.

Lemma entry_indices_nonempty X r : X <> [] -> entry_indices X r <> [].
Proof.
  intros NE. unfold entry_indices. destruct (lt_one r); [apply sampled_indices_nonempty; exact NE|].
  destruct X; [congruence|]. cbn. discriminate.
Qed.

Lemma list_Z_eqb_true a b : list_Z_eqb a b = true -> a = b.
Proof. unfold list_Z_eqb. destruct (list_eq_dec Z.eq_dec a b); [auto|discriminate]. Qed.

Lemma list_Z_eqb_refl a : list_Z_eqb a a = true.
Proof. unfold list_Z_eqb. destruct (list_eq_dec Z.eq_dec a a); [reflexivity|congruence]. Qed.

Lemma check_sound Y X r c o : C04_check (Y, X, r, c) o = true ->
  o = (rows Y (sampled_indices X r), rows X (sampled_indices X r)).
Proof.
  unfold C04_check. intros H. apply andb_prop in H. destruct H as [H1 H2].
  apply list_Z_eqb_true in H1, H2. destruct o as [a b]. cbn [fst snd] in *. congruence.
Qed.

Lemma check_model Y X r c g o : length Y = length X -> subsample g Y X r = Ok o -> C04_check (Y, X, r, c) o = true.
Proof.
  intros L H. rewrite subsample_spec in H by exact L. inversion H. subst o.
  unfold C04_check. cbn [fst snd]. rewrite !list_Z_eqb_refl. reflexivity.
Qed.

Lemma agree_on_sound idx Y Y2 : agree_on idx Y Y2 = true -> forall i, In i idx -> nth i Y 0%Z = nth i Y2 0%Z.
Proof.
  unfold agree_on. intros H i Hi. rewrite forallb_forall in H. apply Z.eqb_eq. apply H. exact Hi.
Qed.

Lemma outside_hyp_sound g Y X r c Y2 : length Y = length X ->
  outside_hyp (Y, X, r, c) Y2 = true -> entry g Y X r c = entry g Y2 X r c.
Proof.
  intros L H. unfold outside_hyp in H. apply andb_prop in H. destruct H as [H H3].
  apply andb_prop in H. destruct H as [H1 H2]. apply Nat.eqb_eq in H1.
  apply entry_outside_irrelevant; [exact L|exact H1|apply agree_on_sound; exact H2|].
  apply orb_prop in H3. destruct H3 as [H3|H3].
  - left. apply eqb_prop. exact H3.
  - right. destruct c; [discriminate|reflexivity].
Qed.

(* the behaviour before fix 6ef24c0 depends on the garbage oracle *)

Definition wX : list Z := [0; 0; 0; 0; 0; 0; 0; 1; 2; 2]%Z.
Definition wY : list Z := [0; 1; 0; 1; 2; 2; 0; 1; 1; 0]%Z.
Definition w07 : Q := (11744051 # 16777216)%Q.        (* np.float32(0.7) = 11744051 / 2^24 *)

Lemma old_unwritten_cell :
  exists buf off, fill wX 2 (f_values wX) (repeat Garbage 6) 0 = Ok (buf, off) /\ off = 5 /\ nth 5 buf (Written 0) = Garbage.
Proof. eexists. eexists. vm_compute. repeat split. Qed.

(* packaged statements used by Props/C04.v *)

Lemma values_spec X : StronglySorted Z.lt (f_values X) /\ (forall v, In v (f_values X) <-> In v X).
Proof. split; [apply f_values_sorted | intros v; apply f_values_In]. Qed.

Lemma positions_spec X v :
  StronglySorted lt (where_eq X v) /\ (forall i, In i (where_eq X v) <-> nth_error X i = Some v).
Proof. split; [apply where_eq_sorted | intros i; apply where_eq_spec]. Qed.

Lemma counts_spec X v k : In (v, k) (numba_unique X) -> k = length (where_eq X v) /\ 0 < k.
Proof. intros H. split; [eapply numba_unique_count | eapply numba_unique_pos]; exact H. Qed.

Lemma sample_nonempty_spec X r :
  X <> [] -> sampled_indices X r <> [] /\ (forall i, In i (sampled_indices X r) -> i < length X).
Proof. intros H. split; [apply sampled_indices_nonempty; exact H | apply sampled_indices_bound]. Qed.

Lemma prefix_refuted : exists (g1 g2 : nat -> Z) Y X r c,
  length Y = length X /\ entry_old g1 Y X r c <> entry_old g2 Y X r c.
Proof.
  exists (fun _ => 3%Z), (fun _ => 9%Z), wY, wX, w07, false. split; [reflexivity|]. vm_compute. discriminate.
Qed.

Lemma prefix_unsafe : exists (g : nat -> Z) Y X r c,
  length Y = length X /\ entry_old g Y X r c = Error IndexOutOfRange.
Proof. exists (fun _ => 10%Z), wY, wX, w07, false. split; [reflexivity|]. vm_compute. reflexivity. Qed.

(* the side condition of entry_outside_irrelevant is necessary: Y = X with the flag on; changing ONE cell of Y in a
   row that is not sampled (row 3; the sample is rows 0,1,7,8,9) switches the self-pair test off and the correction
   on, and the term structure changes *)
Definition wY' : list Z := [0; 0; 0; 1; 0; 0; 0; 1; 2; 2]%Z.
Lemma outside_selfpair_refuted : exists (g : nat -> Z) Y Y' X r c,
  length Y = length X /\ length Y' = length X /\
  (forall i, In i (entry_indices X r) -> nth i Y 0%Z = nth i Y' 0%Z) /\
  Y <> Y' /\ entry g Y X r c <> entry g Y' X r c.
Proof.
  exists no_garbage, wX, wY', wX, w07, true. split; [reflexivity|]. split; [reflexivity|]. split; [|split].
  - apply agree_on_sound. vm_compute. reflexivity.
  - discriminate.
  - vm_compute. discriminate.
Qed.
