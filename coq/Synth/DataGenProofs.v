(* C19 — the generator of Synth/DataGen.v succeeds exactly on the recorded streams that have, feature by
   feature, the shape numpy's contract allows ([gen_feature_iff]); shape, domains, ensure_rep, call pattern and
   progress are read off that.  Then: the layout puts each declared feature at its index ([layout_wf]), the
   validator decides the column properties ([col_ok_iff]), and the naive generator with its CSV rows. *)
From Coq Require Import List ZArith Bool Lia Permutation Sorted.
From Outrank Require Import Common.ListFacts Common.Sort Synth.DataGen.
Import ListNotations.
Open Scope Z_scope.

Lemma memZ_In v l : memZ v l = true <-> In v l.
Proof. apply (existsb_eqb_In Z.eqb Z.eqb_eq). Qed.

Lemma nodupb_iff l : nodupb l = true <-> NoDup l.
Proof. apply (nodupb_iff_of memZ nodupb memZ_In); reflexivity. Qed.

Lemma remove1_perm x l : forall l', remove1 x l = Some l' -> Permutation l (x :: l').
Proof.
  induction l as [|y r IH]; cbn; intros l' H. discriminate.
  destruct (Z.eqb_spec x y).
  - inversion H; subst. reflexivity.
  - destruct (remove1 x r) as [r'|] eqn:E; inversion H; subst.
    eapply perm_trans; [apply perm_skip, IH; reflexivity | apply perm_swap].
Qed.

Lemma remove1_In x l : In x l -> exists l', remove1 x l = Some l'.
Proof.
  induction l as [|y r IH]; cbn; intros H. contradiction.
  destruct (Z.eqb_spec x y); [eauto|]. destruct H as [H|H]; [congruence|].
  destruct (IH H) as [r' ->]. eauto.
Qed.

Lemma permb_iff l1 : forall l2, permb l1 l2 = true <-> Permutation l1 l2.
Proof.
  induction l1 as [|x r IH]; cbn [permb]; intros l2.
  - destruct l2; split; intros H; try reflexivity; try discriminate.
    apply Permutation_nil in H. discriminate.
  - split.
    + destruct (remove1 x l2) as [l2'|] eqn:E; [|discriminate]. intros H.
      apply IH in H. apply remove1_perm in E. rewrite E. now constructor.
    + intros P. destruct (remove1_In x l2) as [l2' E]; [eapply Permutation_in; [exact P|now left]|].
      rewrite E. apply IH. apply remove1_perm in E. rewrite E in P.
      eapply Permutation_cons_inv; exact P.
Qed.

Lemma between_spec lo hi v : between lo hi v = true <-> lo <= v <= hi.
Proof. unfold between. rewrite andb_true_iff, !Z.leb_le. tauto. Qed.

Lemma forallb_iff {A} (f : A -> bool) (P : A -> Prop) l : (forall x, f x = true <-> P x) ->
  (forallb f l = true <-> forall x, In x l -> P x).
Proof. intros H. rewrite forallb_forall. split; intros G x Hx; apply H, G, Hx. Qed.

Lemma forallb_memZ l vs : forallb (fun v => memZ v vs) l = true <-> forall v, In v l -> In v vs.
Proof. apply forallb_iff. intros v. apply memZ_In. Qed.

(* a guarded step of the model succeeds iff the guard holds and the rest succeeds *)
Lemma guard_Ok {A} (b : bool) (r : res A) e y : (if b then r else Err e) = Ok y <-> b = true /\ r = Ok y.
Proof. destruct b; [intuition|]. split; [discriminate|]. intros [H _]. discriminate H. Qed.

Lemma arange_In lo c v : In v (arange lo c) <-> lo <= v < lo + Z.of_nat c.
Proof.
  unfold arange. rewrite in_map_iff. split.
  - intros [i [E Hi]]. apply in_seq in Hi. lia.
  - intros H. exists (Z.to_nat (v - lo)). split. lia. apply in_seq. lia.
Qed.

Lemma arange_length lo c : length (arange lo c) = c.
Proof. unfold arange. now rewrite map_length, seq_length. Qed.

(* what "domain of a feature" means for each kind of declaration *)
Definition dom_ok (a : args) (sp : attrs) (vec : list Z) : Prop :=
  match sp with
  | ACard c =>
      if random_values a
      then length vec = c /\ NoDup vec /\ (forall v, In v vec -> low a <= v <= high a)
      else vec = arange (low a) c
  | AVals vs => vec = vs
  | AValsP vs _ => vec = vs
  end.

Definition feature_ok (a : args) (sp : attrs) (vec col : list Z) : Prop :=
  dom_ok a sp vec /\
  length col = n_samples a /\
  (forall v, In v col -> In v vec) /\
  (forall v, In v col -> in_int32 v = true) /\
  (ensure_rep a = true -> (length vec <= n_samples a)%nat -> forall v, In v vec -> In v col).

(* the first block: the draw of the domain [vec], if there is one *)
Definition domain_stream (a : args) (sp : attrs) (vec : list Z) (pre : list answer) : Prop :=
  match sp with
  | ACard c =>
      if random_values a
      then pre = [RChoice vec] /\ length vec = c /\ NoDup vec /\ (forall v, In v vec -> low a <= v <= high a)
      else pre = [] /\ vec = arange (low a) c
  | AVals vs => pre = [] /\ vec = vs
  | AValsP vs _ => pre = [] /\ vec = vs
  end.

(* frequencies given: np.random.choice accepts them; otherwise the centre is drawn with randint(len(vec)) *)
Definition weight_stream (sp : attrs) (vec : list Z) (w : list answer) : Prop :=
  match sp with
  | AValsP _ ps => w = [] /\ length ps = length vec /\ (forall p, In p ps -> 0 <= p) /\ 0 < sumZ ps
  | _ => exists r, w = [RRandint r] /\ 0 <= r < Z.of_nat (length vec)
  end.

(* what choice and shuffle may return for a feature with domain [vec]; [col] is the shuffled column.
   [sample_ok] names the last three premises of [FS] so that lemmas can speak of them. *)
Definition sample_ok (a : args) (vec smp col : list Z) : Prop :=
  length smp = (if ensure_rep a && (length vec <=? n_samples a)%nat
                then n_samples a - length vec else n_samples a)%nat /\
  (forall v, In v smp -> In v vec) /\
  Permutation (if ensure_rep a && (length vec <=? n_samples a)%nat then smp ++ vec else smp) col.

(* numpy's contract for the calls of one feature.  [vec] is the feature's domain. *)
Inductive feature_stream (a : args) (sp : attrs) (vec : list Z) : list answer -> Prop :=
| FS : forall pre w smp sh,
    domain_stream a sp vec pre ->
    weight_stream sp vec w ->
    length smp = (if ensure_rep a && (length vec <=? n_samples a)%nat
                  then n_samples a - length vec else n_samples a)%nat ->
    (forall v, In v smp -> In v vec) ->
    Permutation (if ensure_rep a && (length vec <=? n_samples a)%nat then smp ++ vec else smp) sh ->
    feature_stream a sp vec (pre ++ w ++ [RChoice smp; RShuffle sh]).

Inductive cols_stream (a : args) : list attrs -> list (list Z) -> list answer -> Prop :=
| CS_nil : cols_stream a [] [] []
| CS_cons : forall sp r vec doms s1 s2,
    feature_stream a sp vec s1 -> cols_stream a r doms s2 ->
    cols_stream a (sp :: r) (vec :: doms) (s1 ++ s2).

(* Each block of _generate_feature succeeds exactly on the streams that begin with the answers the
   contract allows for it; everything the theorems say about a feature is read off these. *)
Lemma get_domain_iff a sp s vec s' :
  get_domain a sp s = Ok (vec, s') <-> exists pre, s = pre ++ s' /\ domain_stream a sp vec pre.
Proof.
  unfold get_domain, domain_stream. destruct sp as [c|vs|vs ps]; [destruct (random_values a)|..].
  2-4: split; [intros H; injection H as <- <-; now exists [] | intros (pre & -> & -> & ->); reflexivity].
  split.
  - destruct s as [|[?|d|?|?|?|?] s0]; try discriminate.
    rewrite guard_Ok, !andb_true_iff, Nat.eqb_eq, nodupb_iff, (forallb_iff _ _ _ (between_spec _ _)).
    intros [[[Lv Nd] Rg] E]. injection E as <- <-. exists [RChoice d]. auto.
  - intros (pre & -> & -> & Lv & Nd & Rg). cbn [app].
    rewrite guard_Ok, !andb_true_iff, Nat.eqb_eq, nodupb_iff, (forallb_iff _ _ _ (between_spec _ _)). auto.
Qed.

Lemma domain_stream_dom_ok a sp vec pre : domain_stream a sp vec pre -> dom_ok a sp vec.
Proof.
  unfold domain_stream, dom_ok. destruct sp; [destruct (random_values a)|..]; intros [_ H]; exact H.
Qed.

Lemma domain_stream_kinds a sp vec pre : domain_stream a sp vec pre ->
  map kind_of pre = match sp with ACard _ => if random_values a then [1] else [] | _ => [] end.
Proof.
  unfold domain_stream. destruct sp; [destruct (random_values a)|..]; intros [-> _]; reflexivity.
Qed.

(* the branch of [get_weights] without frequencies, for a domain of n values *)
Lemma randint_iff n s s' :
  match s with
  | RRandint r :: s0 => if (0 <=? r) && (r <? n) then Ok s0 else Err 5
  | _ => Err 4
  end = Ok s' <-> exists w, s = w ++ s' /\ exists r, w = [RRandint r] /\ 0 <= r < n.
Proof.
  split.
  - destruct s as [|[?|?|r|?|?|?] s0]; try discriminate.
    rewrite guard_Ok, andb_true_iff, Z.leb_le, Z.ltb_lt. intros [Hr E]. injection E as <-.
    exists [RRandint r]. eauto.
  - intros (w & -> & r & -> & Hr). cbn [app]. rewrite guard_Ok, andb_true_iff, Z.leb_le, Z.ltb_lt. auto.
Qed.

Lemma get_weights_iff sp vec s s' :
  get_weights sp vec s = Ok s' <-> exists w, s = w ++ s' /\ weight_stream sp vec w.
Proof.
  unfold get_weights, weight_stream. destruct sp as [c|vs|vs ps]; [apply randint_iff..|].
  rewrite guard_Ok, !andb_true_iff, Nat.eqb_eq, (forallb_iff _ _ _ (Z.leb_le 0)), Z.ltb_lt. split.
  - intros [[[Lp Pp] Sp] E]. injection E as <-. exists []. auto.
  - intros (w & -> & -> & Lp & Pp & Sp). auto.
Qed.

Lemma weight_stream_kinds sp vec w : weight_stream sp vec w ->
  map kind_of w = match sp with AValsP _ _ => [] | _ => [2] end.
Proof.
  unfold weight_stream. destruct sp; [intros (r & -> & _)|intros (r & -> & _)|intros (-> & _)]; reflexivity.
Qed.

Lemma sample_ok_col a vec smp col : sample_ok a vec smp col ->
  length col = n_samples a /\ (forall v, In v col -> In v vec) /\
  (ensure_rep a = true -> (length vec <= n_samples a)%nat -> forall v, In v vec -> In v col).
Proof.
  unfold sample_ok. destruct (ensure_rep a && (length vec <=? n_samples a)%nat) eqn:R; intros (L & M & P).
  - apply andb_true_iff in R as [_ Hle]. apply Nat.leb_le in Hle. split; [|split].
    + rewrite <- (Permutation_length P), app_length. lia.
    + intros v Hv. apply (Permutation_in _ (Permutation_sym P)), in_app_or in Hv. destruct Hv; auto.
    + intros _ _ v Hv. apply (Permutation_in _ P), in_or_app. now right.
  - split; [|split].
    + rewrite <- (Permutation_length P). exact L.
    + intros v Hv. apply M, (Permutation_in _ (Permutation_sym P)), Hv.
    + intros He Hl. apply Nat.leb_le in Hl. rewrite He, Hl in R. discriminate.
Qed.

Lemma gen_feature_iff a sp s vec col s' :
  gen_feature a sp s = Ok (vec, col, s') <->
  exists pre w smp, s = pre ++ w ++ RChoice smp :: RShuffle col :: s' /\
    domain_stream a sp vec pre /\ weight_stream sp vec w /\ sample_ok a vec smp col /\
    (forall v, In v col -> in_int32 v = true).
Proof.
  unfold gen_feature, gen_feature_gen, sample_ok. split.
  - destruct (get_domain a sp s) as [[v1 s1]|] eqn:D; [|discriminate].
    destruct (get_weights sp v1 s1) as [s2|] eqn:W; [|discriminate]. cbv zeta.
    destruct s2 as [|[?|smp|?|?|?|?] [|[?|?|?|sh|?|?] s3]]; try discriminate.
    rewrite !guard_Ok, andb_true_iff, Nat.eqb_eq, forallb_memZ, permb_iff, forallb_forall.
    intros ([L M] & P & I & E). injection E as <- <- <-.
    apply get_domain_iff in D as (pre & -> & D). apply get_weights_iff in W as (w & -> & W).
    exists pre, w, smp. repeat split; assumption.
  - intros (pre & w & smp & -> & D & W & (L & M & P) & I).
    erewrite (proj2 (get_domain_iff _ _ _ _ _)) by (exists pre; split; [reflexivity|exact D]).
    erewrite (proj2 (get_weights_iff _ _ _ _)) by (exists w; split; [reflexivity|exact W]). cbv beta iota zeta.
    rewrite !guard_Ok, andb_true_iff, Nat.eqb_eq, forallb_memZ, permb_iff, forallb_forall.
    split; [split; [exact L|exact M]|]. split; [exact P|]. split; [exact I|reflexivity].
Qed.

Lemma gen_feature_sound a sp s vec col s' : gen_feature a sp s = Ok (vec, col, s') ->
  feature_ok a sp vec col /\ map kind_of s = feature_pattern a sp ++ map kind_of s'.
Proof.
  intros H. apply gen_feature_iff in H as (pre & w & smp & -> & D & W & S & I). split.
  - destruct (sample_ok_col _ _ _ _ S) as (Lc & Iv & R).
    split; [exact (domain_stream_dom_ok _ _ _ _ D)|]. split; [exact Lc|]. split; [exact Iv|]. split; [exact I|exact R].
  - unfold feature_pattern.
    rewrite !map_app, (domain_stream_kinds _ _ _ _ D), (weight_stream_kinds _ _ _ W), <- !app_assoc. reflexivity.
Qed.

Lemma gen_cols_sound a : forall specs s dcs s', gen_cols a specs s = Ok (dcs, s') ->
  Forall2 (fun sp dc => feature_ok a sp (fst dc) (snd dc)) specs dcs /\
  map kind_of s = flat_map (feature_pattern a) specs ++ map kind_of s'.
Proof.
  unfold gen_cols. induction specs as [|sp r IH]; cbn [gen_cols_gen flat_map]; intros s dcs s' H.
  - injection H as <- <-. split; [constructor|reflexivity].
  - destruct (gen_feature_gen Nat.leb a sp s) as [[[vec col] s1]|] eqn:F; [|discriminate].
    destruct (gen_cols_gen Nat.leb a r s1) as [[cs s2]|] eqn:G; [|discriminate]. injection H as <- <-.
    apply gen_feature_sound in F as [F1 F2]. apply IH in G as [G1 G2].
    split; [constructor; assumption|]. rewrite F2, G2. apply app_assoc.
Qed.

Lemma ltb_le' x y : Nat.ltb x y = true -> (x <= y)%nat.
Proof. intros H. apply Nat.ltb_lt in H. lia. Qed.

Lemma transpose_length n cols : length (transpose n cols) = n.
Proof. unfold transpose. now rewrite map_length, seq_length. Qed.

Lemma nth_map_seq {A} (f : nat -> A) n i d : (i < n)%nat -> nth i (map f (seq 0 n)) d = f i.
Proof.
  intros Hi. rewrite (nth_map_lt f _ i O) by (rewrite seq_length; exact Hi). now rewrite seq_nth.
Qed.

Lemma nth_cols i j (cols : list (list Z)) : nth j (map (fun c => nth i c 0) cols) 0 = nth i (nth j cols []) 0.
Proof. destruct i; exact (map_nth (fun c => nth _ c 0) cols [] j). Qed.

Lemma cell_column X i j : cell X i j = nth i (column X j) 0.
Proof. symmetry. apply nth_cols. Qed.

Lemma transpose_rows_in n cols row : In row (transpose n cols) ->
  exists i, (i < n)%nat /\ row = map (fun c => nth i c 0) cols.
Proof.
  unfold transpose. rewrite in_map_iff. intros [i [E Hi]]. apply in_seq in Hi.
  exists i. split. lia. now symmetry.
Qed.

Lemma transpose_column n cols j : length (nth j cols []) = n ->
  column (transpose n cols) j = nth j cols [].
Proof.
  intros L. unfold column, transpose. rewrite map_map.
  erewrite map_ext by (intros i; apply nth_cols). rewrite <- L. apply map_nth_seq.
Qed.

Lemma generate_full_inv a s X doms :
  generate_full a s = Ok (X, doms) ->
  exists specs dcs s1,
    s = RSeed (seed a) :: s1 /\
    layout a = Ok specs /\ gen_cols a specs s1 = Ok (dcs, []) /\
    X = transpose (n_samples a) (map snd dcs) /\ doms = map fst dcs.
Proof.
  unfold generate_full, generate_full_gen, gen_cols. intros H.
  destruct s as [|[sd|?|?|?|?|?] s1]; try discriminate.
  destruct (Z.eqb_spec sd (seed a)); [|discriminate]. subst sd.
  destruct (layout a) as [specs|] eqn:L; [|discriminate].
  destruct (gen_cols_gen Nat.leb a specs s1) as [[dcs rest]|] eqn:G; [|discriminate].
  destruct rest; [|discriminate]. inversion H; subst.
  exists specs, dcs, s1. auto.
Qed.

Lemma layout_length a specs : layout a = Ok specs -> length specs = n_features a.
Proof.
  unfold layout. cbv zeta. rewrite !guard_Ok, Nat.eqb_eq. intros (_ & L & E). injection E as <-. exact L.
Qed.

Section Run.
  Variables (a : args) (s : list answer) (X doms : list (list Z)).
  Hypothesis RUN : generate_full a s = Ok (X, doms).

  Lemma run_cols : exists specs dcs,
      layout a = Ok specs /\ Forall2 (fun sp dc => feature_ok a sp (fst dc) (snd dc)) specs dcs /\
      length specs = n_features a /\
      X = transpose (n_samples a) (map snd dcs) /\ doms = map fst dcs.
  Proof.
    destruct (generate_full_inv _ _ _ _ RUN) as (specs & dcs & s1 & _ & L & G & EX & ED).
    exists specs, dcs. split; [exact L|]. split; [exact (proj1 (gen_cols_sound a _ _ _ _ G))|].
    split; [exact (layout_length _ _ L)|]. split; assumption.
  Qed.

  Lemma run_feature specs j : layout a = Ok specs -> (j < n_features a)%nat ->
      feature_ok a (nth j specs (dflt a)) (nth j doms []) (column X j).
  Proof.
    destruct run_cols as (specs' & dcs & L' & F & LS & EX & ED). intros L Hj.
    rewrite L' in L. injection L as <-.
    assert (FJ := Forall2_nth _ _ _ j (dflt a) ([], []) F ltac:(lia)).
    assert (Ed : nth j doms [] = fst (nth j dcs ([], []))) by (subst doms; exact (map_nth fst dcs ([], []) j)).
    assert (Ec : nth j (map snd dcs) [] = snd (nth j dcs ([], []))) by exact (map_nth snd dcs ([], []) j).
    rewrite Ed. subst X. rewrite transpose_column.
    - rewrite Ec. exact FJ.
    - rewrite Ec. exact (proj1 (proj2 FJ)).
  Qed.

  Lemma run_shape :
    length X = n_samples a /\
    forall row, In row X -> length row = n_features a /\ forall v, In v row -> in_int32 v = true.
  Proof.
    destruct run_cols as (specs & dcs & L & F & LS & EX & ED). subst X.
    split. apply transpose_length.
    intros row Hr. apply transpose_rows_in in Hr as [i [Hi ->]]. split.
    - rewrite !map_length, <- (Forall2_len _ _ _ F). exact LS.
    - intros v Hv. apply in_map_iff in Hv as [c [<- Hc]]. apply in_map_iff in Hc as [dc [<- Hdc]].
      destruct (In_nth _ _ ([], []) Hdc) as (j & Hj & <-).
      rewrite <- (Forall2_len _ _ _ F) in Hj.
      destruct (Forall2_nth _ _ _ j (dflt a) ([], []) F Hj) as (_ & Lc & _ & I32 & _).
      apply I32. apply nth_In. lia.
  Qed.

  Lemma run_domain : exists specs, layout a = Ok specs /\ length doms = n_features a /\
    forall j, (j < n_features a)%nat ->
      dom_ok a (nth j specs (dflt a)) (nth j doms []) /\
      forall i, (i < n_samples a)%nat -> In (cell X i j) (nth j doms []).
  Proof.
    destruct run_cols as (specs & dcs & L & F & LS & EX & ED).
    exists specs. split; [exact L|]. split.
    { subst doms. rewrite map_length, <- (Forall2_len _ _ _ F). exact LS. }
    intros j Hj. destruct (run_feature specs j L Hj) as (D & Lc & Iv & _). split; [exact D|].
    intros i Hi. rewrite cell_column. apply Iv. apply nth_In. lia.
  Qed.

  Lemma run_ensure_rep : ensure_rep a = true ->
    forall j, (j < n_features a)%nat -> (length (nth j doms []) <= n_samples a)%nat ->
    forall v, In v (nth j doms []) -> exists i, (i < n_samples a)%nat /\ cell X i j = v.
  Proof.
    intros He j Hj Hc v Hv. destruct run_cols as (specs & _ & L & _).
    destruct (run_feature specs j L Hj) as (_ & Lc & _ & _ & R).
    destruct (In_nth _ _ 0 (R He Hc v Hv)) as [i [Hi E]]. exists i. split. lia. rewrite cell_column. exact E.
  Qed.

  Lemma run_pattern : map kind_of s = call_pattern a.
  Proof.
    destruct (generate_full_inv _ _ _ _ RUN) as (specs & dcs & s1 & E & L & C & _).
    unfold call_pattern. rewrite E, L. cbn [map kind_of]. f_equal.
    rewrite (proj2 (gen_cols_sound a _ _ _ _ C)). apply app_nil_r.
  Qed.
End Run.

Lemma generate_seeded a s X : generate a s = Ok X -> exists s1, s = RSeed (seed a) :: s1.
Proof.
  unfold generate. destruct (generate_full a s) as [[X' doms]|] eqn:G; [|discriminate]. intros _.
  destruct (generate_full_inv _ _ _ _ G) as (specs & dcs & s1 & E & _). eauto.
Qed.

Lemma gen_feature_progress a sp vec s1 rest :
  feature_stream a sp vec s1 -> (forall v, In v vec -> in_int32 v = true) ->
  exists col, gen_feature a sp (s1 ++ rest) = Ok (vec, col, rest).
Proof.
  intros [pre w smp sh D W L M P] I32. pose proof (conj L (conj M P)) as S.
  exists sh. apply gen_feature_iff. exists pre, w, smp.
  split; [now rewrite <- !app_assoc|]. split; [exact D|]. split; [exact W|]. split; [exact S|].
  intros v Hv. apply I32, (proj1 (proj2 (sample_ok_col _ _ _ _ S))), Hv.
Qed.

Lemma gen_cols_progress a : forall specs doms s1, cols_stream a specs doms s1 ->
  (forall dom, In dom doms -> forall v, In v dom -> in_int32 v = true) ->
  forall rest, exists dcs, gen_cols a specs (s1 ++ rest) = Ok (dcs, rest) /\ map fst dcs = doms.
Proof.
  induction 1 as [|sp r vec doms s1 s2 F C IH]; intros I32 rest.
  - exists []. split; reflexivity.
  - destruct (gen_feature_progress a sp vec s1 (s2 ++ rest) F) as [col Ef].
    { intros v Hv. apply (I32 vec); cbn; auto. }
    destruct (IH ltac:(intros d Hd; apply I32; cbn; auto) rest) as (dcs & Ec & Ed).
    exists ((vec, col) :: dcs). split.
    + unfold gen_cols in *. cbn [gen_cols_gen]. rewrite <- app_assoc.
      unfold gen_feature in Ef. rewrite Ef, Ec. reflexivity.
    + cbn. now rewrite Ed.
Qed.

Lemma generate_progress a specs doms s1 :
  layout a = Ok specs -> cols_stream a specs doms s1 ->
  (forall dom, In dom doms -> forall v, In v dom -> in_int32 v = true) ->
  exists X, generate_full a (RSeed (seed a) :: s1) = Ok (X, doms).
Proof.
  intros L C I32. destruct (gen_cols_progress a specs doms s1 C I32 []) as (dcs & E & Ed).
  rewrite app_nil_r in E.
  exists (transpose (n_samples a) (map snd dcs)).
  unfold generate_full, generate_full_gen. rewrite Z.eqb_refl, L.
  unfold gen_cols in E. rewrite E, Ed. reflexivity.
Qed.

Lemma declared_in_below d : forall r lo j,
  increasing_from lo (map fst r) = true -> (j < lo)%nat -> declared_in d r j = d.
Proof.
  induction r as [|[i at_] r IH]; cbn; intros lo j H Hj. reflexivity.
  apply andb_true_iff in H as [H1 H2]. apply Nat.leb_le in H1.
  destruct (Nat.eqb_spec i j). lia. apply (IH (S i)); auto. lia.
Qed.

Lemma declared_in_In d : forall (l : list (nat * attrs)) j at_,
  NoDup (map fst l) -> In (j, at_) l -> declared_in d l j = at_.
Proof.
  induction l as [|[i b] r IH]; cbn; intros j at_ Hn Hin. contradiction.
  inversion Hn as [|x xs Hni Hn']; subst.
  destruct Hin as [E|Hin].
  - inversion E; subst. now rewrite Nat.eqb_refl.
  - destruct (Nat.eqb_spec i j).
    + subst i. exfalso. apply Hni. apply in_map_iff. exists (j, at_). auto.
    + apply IH; auto.
Qed.

Lemma declared_in_notin d : forall (l : list (nat * attrs)) j,
  ~ In j (map fst l) -> declared_in d l j = d.
Proof.
  induction l as [|[i b] r IH]; cbn; intros j Hn. reflexivity.
  destruct (Nat.eqb_spec i j). exfalso; auto. apply IH. auto.
Qed.

Lemma declared_in_perm d l l' j : Permutation l l' -> NoDup (map fst l) ->
  declared_in d l j = declared_in d l' j.
Proof.
  intros P Hn.
  assert (Hn' : NoDup (map fst l')) by (eapply Permutation_NoDup; [apply Permutation_map, P | exact Hn]).
  destruct (in_dec Nat.eq_dec j (map fst l)) as [Hin|Hout].
  - apply in_map_iff in Hin as [[i at_] [E Hin]]. cbn in E. subst i.
    rewrite (declared_in_In d l j at_ Hn Hin).
    symmetry. apply declared_in_In; auto. eapply Permutation_in; eauto.
  - rewrite (declared_in_notin d l j Hout). symmetry. apply declared_in_notin.
    intro H. apply Hout. eapply Permutation_in; [apply Permutation_map, Permutation_sym, P | exact H].
Qed.

Lemma nodup_nat_NoDup l : nodup_nat l = true <-> NoDup l.
Proof.
  apply (nodupb_iff_of (fun x r => existsb (Nat.eqb x) r) nodup_nat); [|reflexivity..].
  intros x r. apply (existsb_eqb_In Nat.eqb Nat.eqb_eq).
Qed.

(* the ordering step: [sort_ix] is the insertion sort of Common/Sort.v on the index *)
Lemma sort_ix_perm l : Permutation (sort_ix l) l.
Proof. exact (isort_perm (fun p q => (fst p <=? fst q)%nat) l). Qed.

Lemma sort_ix_sorted l : StronglySorted (fun i j => (i <=? j)%nat = true) (map fst (sort_ix l)).
Proof.
  apply StronglySorted_map. apply (isort_sorted (fun p q : nat * attrs => (fst p <=? fst q)%nat)).
  - intros x y. rewrite !Nat.leb_le. lia.
  - intros x y z. rewrite !Nat.leb_le. lia.
Qed.

Lemma sorted_increasing : forall ks lo,
  StronglySorted (fun i j => (i <=? j)%nat = true) ks -> NoDup ks ->
  (forall k, In k ks -> (lo <= k)%nat) -> increasing_from lo ks = true.
Proof.
  induction ks as [|k r IH]; cbn [increasing_from]; intros lo HS Hn Hlo; [reflexivity|].
  apply StronglySorted_inv in HS as [HS HF]. inversion Hn as [|? ? Hk Hn']; subst.
  apply andb_true_iff. split; [apply Nat.leb_le, Hlo; now left|].
  apply IH; [exact HS|exact Hn'|]. intros k' Hk'. rewrite Forall_forall in HF. specialize (HF _ Hk').
  apply Nat.leb_le in HF. assert (k <> k') by (intros ->; contradiction). lia.
Qed.

(* Reading a layout with the default feature as the default of [nth] makes everything beyond the columns
   written so far the default feature, as [declared_in] is beyond the last index described. *)
Lemma nth_pad {A} (d : A) l m j : nth j (l ++ repeat d m) d = nth j l d.
Proof.
  destruct (Nat.lt_ge_cases j (length l)) as [H|H]; [apply app_nth1; exact H|].
  rewrite app_nth2, nth_repeat by exact H. symmetry. apply nth_overflow. exact H.
Qed.

Lemma place_length d acc i at_ : (length acc <= i)%nat -> length (place d acc i at_) = S i.
Proof. intros H. unfold place. rewrite !app_length, repeat_length. cbn [length]. lia. Qed.

Lemma nth_place d acc i at_ j : (length acc <= i)%nat ->
  nth j (place d acc i at_) d =
  if (j <? length acc)%nat then nth j acc d else if (i =? j)%nat then at_ else d.
Proof.
  intros H. unfold place. destruct (Nat.ltb_spec j (length acc)) as [Hj|Hj]; [apply app_nth1; exact Hj|].
  rewrite app_nth2 by exact Hj. destruct (Nat.eqb_spec i j) as [<-|Hne].
  - rewrite app_nth2 by (rewrite repeat_length; lia). rewrite repeat_length, Nat.sub_diag. reflexivity.
  - destruct (Nat.lt_ge_cases j i).
    + rewrite app_nth1 by (rewrite repeat_length; lia). apply nth_repeat.
    + apply nth_overflow. rewrite app_length, repeat_length. cbn [length]. lia.
Qed.

Lemma place_all_cons d i at_ r acc : place_all d ((i, at_) :: r) acc = place_all d r (place d acc i at_).
Proof. reflexivity. Qed.

Lemma nth_place_all d : forall fl acc j, increasing_from (length acc) (map fst fl) = true ->
  nth j (place_all d fl acc) d = if (j <? length acc)%nat then nth j acc d else declared_in d fl j.
Proof.
  induction fl as [|[i at_] r IH]; intros acc j Hinc.
  - unfold place_all. cbn [fold_left declared_in].
    destruct (Nat.ltb_spec j (length acc)); [reflexivity|now apply nth_overflow].
  - cbn [map fst increasing_from] in Hinc. apply andb_true_iff in Hinc as [Hi Hr]. apply Nat.leb_le in Hi.
    rewrite place_all_cons, IH by (rewrite place_length by exact Hi; exact Hr).
    rewrite place_length, nth_place by exact Hi. cbn [declared_in].
    destruct (Nat.ltb_spec j (length acc)), (Nat.ltb_spec j (S i)), (Nat.eqb_spec i j); try reflexivity; try lia.
    (* between the old columns and index i: a default column, and no later entry describes it *)
    symmetry. apply (declared_in_below d r (S i)); [exact Hr|lia].
Qed.

Lemma place_all_length d n : forall fl acc, increasing_from (length acc) (map fst fl) = true ->
  forallb (fun i => (i <? n)%nat) (map fst fl) = true -> (length acc <= n)%nat ->
  (length (place_all d fl acc) <= n)%nat.
Proof.
  induction fl as [|[i at_] r IH]; intros acc Hinc Hlt Hacc; [exact Hacc|].
  cbn [map fst increasing_from forallb] in Hinc, Hlt.
  apply andb_true_iff in Hinc as [Hi Hr]. apply andb_true_iff in Hlt as [Hin Hlt].
  apply Nat.leb_le in Hi. apply Nat.ltb_lt in Hin.
  rewrite place_all_cons. apply IH; rewrite ?place_length by exact Hi; [exact Hr|exact Hlt|lia].
Qed.

Lemma wf_structure_spec a : wf_structure a = true ->
  NoDup (map fst (flat (structure a))) /\
  forall i, In i (map fst (flat (structure a))) -> (i < n_features a)%nat.
Proof.
  unfold wf_structure. intros H. apply andb_true_iff in H as [H1 H2]. split.
  - now apply nodup_nat_NoDup.
  - rewrite forallb_forall in H2. intros i Hi. apply Nat.ltb_lt. auto.
Qed.

Lemma layout_wf a : wf_structure a = true ->
  layout a = Ok (map (declared a) (seq 0 (n_features a))).
Proof.
  intros H. destruct (wf_structure_spec a H) as [Hn Hr].
  unfold layout. cbv zeta. rewrite (proj2 (nodup_nat_NoDup _) Hn).
  set (fl := flat (structure a)) in *. set (L := place_all (dflt a) (sort_ix fl) []).
  assert (P : Permutation (sort_ix fl) fl) by apply sort_ix_perm.
  assert (Hinc : increasing_from 0 (map fst (sort_ix fl)) = true).
  { apply sorted_increasing; [apply sort_ix_sorted| |intros; lia].
    eapply Permutation_NoDup; [apply Permutation_map, Permutation_sym, P|exact Hn]. }
  assert (HL : (length L <= n_features a)%nat).
  { apply place_all_length; [exact Hinc| |cbn; lia]. apply forallb_forall. intros i Hi.
    apply Nat.ltb_lt, Hr. eapply Permutation_in; [apply Permutation_map, P|exact Hi]. }
  assert (E : L ++ repeat (dflt a) (n_features a - length L) = map (declared a) (seq 0 (n_features a))).
  { apply (nth_ext _ _ (dflt a) (dflt a)).
    - rewrite app_length, repeat_length, map_length, seq_length. lia.
    - intros j Hj. rewrite app_length, repeat_length in Hj.
      rewrite nth_pad, nth_map_seq by lia. unfold L. rewrite nth_place_all by exact Hinc.
      change (j <? length (@nil attrs))%nat with false. cbv iota.
      symmetry. apply declared_in_perm; [symmetry; exact P|exact Hn]. }
  rewrite E, map_length, seq_length, Nat.eqb_refl. reflexivity.
Qed.

Lemma layout_positions a i at_ : wf_structure a = true -> In (i, at_) (flat (structure a)) ->
  exists specs, layout a = Ok specs /\ (i < n_features a)%nat /\ nth i specs (dflt a) = at_.
Proof.
  intros H Hin. exists (map (declared a) (seq 0 (n_features a))). split. now apply layout_wf.
  destruct (wf_structure_spec a H) as [Hn Hr].
  assert (Hi : (i < n_features a)%nat).
  { apply Hr. apply in_map_iff. exists (i, at_). auto. }
  split; [exact Hi|]. rewrite nth_map_seq by exact Hi. unfold declared.
  now apply declared_in_In.
Qed.

Lemma layout_default a j : wf_structure a = true -> (j < n_features a)%nat ->
  ~ In j (map fst (flat (structure a))) ->
  exists specs, layout a = Ok specs /\ nth j specs (dflt a) = dflt a.
Proof.
  intros H Hj Hn. exists (map (declared a) (seq 0 (n_features a))). split. now apply layout_wf.
  rewrite nth_map_seq by exact Hj. unfold declared. now apply declared_in_notin.
Qed.

(* an index described twice: the code raises ValueError *)
Lemma layout_rejects_duplicates a : ~ NoDup (map fst (flat (structure a))) -> layout a = Err 21.
Proof.
  intros H. unfold layout. destruct (nodup_nat (map fst (flat (structure a)))) eqn:E; [|reflexivity].
  apply nodup_nat_NoDup in E. contradiction.
Qed.

Lemma generate_progress_wf a doms s1 :
  wf_structure a = true ->
  cols_stream a (map (declared a) (seq 0 (n_features a))) doms s1 ->
  (forall dom, In dom doms -> forall v, In v dom -> in_int32 v = true) ->
  exists X, generate_full a (RSeed (seed a) :: s1) = Ok (X, doms).
Proof. intros H. apply generate_progress. now apply layout_wf. Qed.

(* before the ordering repair: the code placed a feature at the running counter, not at its index *)
Definition unsorted_witness : args :=
  mkArgs 4 3 5 (Some [SOne 2 (ACard 2); SOne 0 (AVals [5; 6])]) false false 0 1000 3.

Lemma positions_unsorted_prefix_refuted :
  exists a i at_ specs,
    In (i, at_) (flat (structure a)) /\ wf_structure a = true /\
    layout_old a = Ok specs /\ nth i specs (dflt a) <> at_.
Proof.
  exists unsorted_witness, O, (AVals [5; 6]), [ACard 5; ACard 5; ACard 2; AVals [5; 6]].
  split. cbn; auto. split. reflexivity. split. reflexivity. cbn. discriminate.
Qed.

Example unsorted_witness_now :
  layout unsorted_witness = Ok [AVals [5; 6]; ACard 5; ACard 2; ACard 5].
Proof. reflexivity. Qed.

Definition listed_prop (a : args) (vs col : list Z) : Prop :=
  (forall v, In v col -> In v vs) /\
  (ensure_rep a = true -> (length vs <= n_samples a)%nat -> forall v, In v vs -> In v col).

Definition col_prop (a : args) (sp : attrs) (col : list Z) : Prop :=
  match sp with
  | ACard c =>
      if random_values a then
        (forall v, In v col -> low a <= v <= high a) /\ (length (distinct col) <= c)%nat /\
        (ensure_rep a = true -> (c <= n_samples a)%nat -> length (distinct col) = c)
      else listed_prop a (arange (low a) c) col
  | AVals vs => listed_prop a vs col
  | AValsP vs _ => listed_prop a vs col
  end.

Lemma guarded_iff (b1 b2 c : bool) (C : Prop) : (c = true <-> C) ->
  ((if b1 && b2 then c else true) = true <-> (b1 = true -> b2 = true -> C)).
Proof. intros <-. destruct b1, b2, c; cbn; intuition discriminate. Qed.

Lemma listed_iff a vs col :
  forallb (fun v => memZ v vs) col &&
  (if ensure_rep a && (length vs <=? n_samples a)%nat then forallb (fun v => memZ v col) vs else true) = true <->
  listed_prop a vs col.
Proof.
  unfold listed_prop. rewrite andb_true_iff, forallb_memZ, (guarded_iff _ _ _ _ (forallb_memZ vs col)), Nat.leb_le.
  reflexivity.
Qed.

Lemma col_ok_iff a sp col : col_ok a sp col = true <-> col_prop a sp col.
Proof.
  unfold col_ok, col_prop. destruct sp as [c|vs|vs ps]; try apply listed_iff.
  destruct (random_values a); [|apply listed_iff].
  rewrite !andb_true_iff, (forallb_iff _ _ _ (between_spec _ _)), (guarded_iff _ _ _ _ (Nat.eqb_eq _ c)), !Nat.leb_le.
  apply and_assoc.
Qed.

Lemma shape_ok_iff a X : shape_ok a X = true <->
  length X = n_samples a /\
  forall row, In row X -> length row = n_features a /\ forall v, In v row -> in_int32 v = true.
Proof.
  unfold shape_ok. rewrite andb_true_iff, Nat.eqb_eq. apply and_iff_compat_l, forallb_iff.
  intros row. rewrite andb_true_iff, Nat.eqb_eq, forallb_forall. reflexivity.
Qed.

(* with random values the domain is not observable: the column shows at most c distinct values, and all of
   them when ensure_rep applies, because the domain has exactly c *)
Lemma feature_col_prop a sp vec col : feature_ok a sp vec col -> col_prop a sp col.
Proof.
  intros (D & Lc & Iv & _ & R). unfold col_prop. unfold dom_ok in D.
  destruct sp as [c|vs|vs ps]; try (subst vec; exact (conj Iv R)).
  destruct (random_values a); [|subst vec; exact (conj Iv R)].
  destruct D as (Lv & Nd & Rg).
  assert (Hle : (length (distinct col) <= c)%nat).
  { rewrite <- Lv. apply NoDup_incl_length; [apply NoDup_nodup|].
    intros v Hv. apply Iv. unfold distinct in Hv. now apply nodup_In in Hv. }
  split; [auto|]. split; [exact Hle|]. intros He Hc.
  apply Nat.le_antisymm; [exact Hle|]. rewrite <- Lv. apply NoDup_incl_length; [exact Nd|].
  intros v Hv. unfold distinct. apply nodup_In. apply R; auto. now rewrite Lv.
Qed.

Lemma valid_dataset_sound a X : valid_dataset a X = true ->
  length X = n_samples a /\
  (forall row, In row X -> length row = n_features a /\ forall v, In v row -> in_int32 v = true) /\
  exists specs, layout a = Ok specs /\
    (forall j, (j < n_features a)%nat -> col_prop a (nth j specs (dflt a)) (column X j)) /\
    (wf_structure a = true -> forall j, (j < n_features a)%nat -> nth j specs (dflt a) = declared a j).
Proof.
  unfold valid_dataset. intros H. apply andb_true_iff in H as [H1 H2].
  apply shape_ok_iff in H1 as [S1 S2]. split; [exact S1|]. split; [exact S2|].
  destruct (layout a) as [specs|] eqn:L; [|discriminate]. exists specs. split; [reflexivity|]. split.
  - intros j Hj. rewrite forallb_forall in H2. apply col_ok_iff. apply H2. apply in_seq. lia.
  - intros Hw j Hj. rewrite (layout_wf a Hw) in L. inversion L; subst specs. now rewrite nth_map_seq.
Qed.

Lemma model_passes_validator a s X : generate a s = Ok X -> valid_dataset a X = true.
Proof.
  intros H. unfold generate in H.
  destruct (generate_full a s) as [[X' doms]|] eqn:G; [|discriminate]. inversion H; subst X'. clear H.
  unfold valid_dataset. apply andb_true_iff. split; [apply shape_ok_iff, (run_shape a s X doms G)|].
  destruct (run_cols a s X doms G) as (specs & _ & L & _). rewrite L.
  apply forallb_forall. intros j Hj. apply in_seq in Hj.
  apply col_ok_iff, (feature_col_prop a _ (nth j doms [])), (run_feature a s X doms G specs j L). lia.
Qed.

(* ensure_rep before the repair (`len(vec) < size`) *)
Definition old_witness_args : args := mkArgs 1 2 2 None true false 0 1000 42.
Definition old_witness_stream : list answer := [RSeed 42; RRandint 0; RChoice [0; 0]; RShuffle [0; 0]].

Lemma ensure_rep_prefix_refuted :
  exists a s X doms,
    generate_full_old a s = Ok (X, doms) /\ ensure_rep a = true /\
    exists j v, (j < n_features a)%nat /\ (length (nth j doms []) <= n_samples a)%nat /\
                In v (nth j doms []) /\ forall i, (i < n_samples a)%nat -> cell X i j <> v.
Proof.
  exists old_witness_args, old_witness_stream, [[0]; [0]], [[0; 1]].
  split. reflexivity. split. reflexivity.
  exists O, 1. split. cbn; lia. split. cbn; lia. split. cbn; auto.
  intros i Hi. cbn in Hi. destruct i as [|[|i]]; cbn; try discriminate. lia.
Qed.

(* the repaired comparison rejects that stream: with size = cardinality nothing may be drawn *)
Lemma old_witness_rejected_now : generate old_witness_args old_witness_stream = Err 7.
Proof. reflexivity. Qed.

Lemma zip_with_length {A B C} (f : A -> B -> C) l1 : forall l2,
  length l1 = length l2 -> length (zip_with f l1 l2) = length l1.
Proof.
  induction l1 as [|x r IH]; destruct l2; cbn; intros H; try discriminate; auto.
Qed.

Lemma zip_with_nth {A B C} (f : A -> B -> C) d1 d2 d l1 : forall l2 i,
  length l1 = length l2 -> (i < length l1)%nat ->
  nth i (zip_with f l1 l2) d = f (nth i l1 d1) (nth i l2 d2).
Proof.
  induction l1 as [|x r IH]; destruct l2; cbn; intros i H Hi; try discriminate; try lia.
  destruct i. reflexivity. apply IH; lia.
Qed.

Lemma set_nth_length v l : forall k, length (set_nth k v l) = length l.
Proof. induction l as [|x r IH]; destruct k; cbn; auto. Qed.

Lemma set_nth_same v l : forall k, (k < length l)%nat -> nth k (set_nth k v l) 0 = v.
Proof.
  induction l as [|x r IH]; destruct k; cbn; intros H; try lia; try reflexivity. apply IH. lia.
Qed.

Lemma set_nth_other v l : forall k j, j <> k -> nth j (set_nth k v l) 0 = nth j l 0.
Proof.
  induction l as [|x r IH]; destruct k; destruct j; cbn; intros H; try reflexivity; try congruence.
  apply IH. congruence.
Qed.

(* the two masked assignments amount to one threshold test *)
Lemma label_formula v :
  (if 39 <? (if v <? 40 then 0 else v) then 1 else (if v <? 40 then 0 else v)) = (if 40 <=? v then 1 else 0).
Proof.
  destruct (Z.ltb_spec v 40); destruct (Z.leb_spec 40 v); try lia.
  - reflexivity.
  - destruct (Z.ltb_spec 39 v); [reflexivity | lia].
Qed.

Lemma naive_spec nf size s sample target :
  naive nf size s = Ok (sample, target) ->
  exists m, s = [RRandintMat m] /\ (needle < nf)%nat /\ length m = size /\
    target = map (fun r => if 40 <=? nth needle r 0 then 1 else 0) m /\
    length sample = size /\
    forall i, (i < size)%nat ->
      length (nth i sample []) = nf /\
      nth needle (nth i sample []) 0 = nth i target 0 /\
      forall j, j <> needle -> nth j (nth i sample []) 0 = nth j (nth i m []) 0.
Proof.
  unfold naive. intros H.
  destruct s as [|[?|?|?|?|m|?] [|]]; try discriminate.
  apply guard_Ok in H as [E1 H]. apply guard_Ok in H as [Hnf H]. apply Nat.ltb_lt in Hnf.
  assert (ET : map (fun v => if 39 <? v then 1 else v)
                 (map (fun v => if v <? 40 then 0 else v) (map (fun r => nth needle r 0) m))
               = map (fun r => if 40 <=? nth needle r 0 then 1 else 0) m).
  { rewrite !map_map. apply map_ext. intros r. apply label_formula. }
  rewrite ET in H.
  set (t := map (fun r => if 40 <=? nth needle r 0 then 1 else 0) m) in *.
  (* [F] is kept opaque so that set_nth is not unfolded at the constant needle *)
  remember (fun (r : list Z) (t : Z) => set_nth needle t r) as F eqn:EF.
  injection H as <- <-.
  apply andb_true_iff in E1 as [L1 R1]. apply Nat.eqb_eq in L1. rewrite forallb_forall in R1.
  exists m. split; [reflexivity|]. split; [exact Hnf|]. split; [exact L1|]. split; [reflexivity|].
  assert (Lt : length m = length t) by (unfold t; now rewrite map_length).
  split; [rewrite zip_with_length; auto|].
  intros i Hi. rewrite <- L1 in Hi. rewrite (zip_with_nth F [] 0 [] m t i Lt Hi). subst F. cbv beta.
  assert (Hr : length (nth i m []) = nf).
  { specialize (R1 (nth i m []) (nth_In _ _ Hi)). apply andb_true_iff in R1 as [R1 _]. now apply Nat.eqb_eq. }
  split; [now rewrite set_nth_length|]. split; [apply set_nth_same; lia|].
  intros j Hj. now apply set_nth_other.
Qed.

Lemma naive_small nf size s : (nf <= needle)%nat -> exists e, naive nf size s = Err e.
Proof.
  intros Hn. unfold naive. destruct s as [|[] [|]]; eauto.
  match goal with |- context [if ?c then _ else _] => destruct c end; eauto.
  destruct (Nat.ltb_spec needle nf); [lia|eauto].
Qed.

Lemma naive_needle_only nf size nf' size' m m' sa t sa' t' :
  naive nf size [RRandintMat m] = Ok (sa, t) -> naive nf' size' [RRandintMat m'] = Ok (sa', t') ->
  map (fun r => nth needle r 0) m = map (fun r => nth needle r 0) m' -> t = t'.
Proof.
  intros H H' E.
  destruct (naive_spec _ _ _ _ _ H) as (m0 & E0 & _ & _ & -> & _). injection E0 as <-.
  destruct (naive_spec _ _ _ _ _ H') as (m1 & E1 & _ & _ & -> & _). injection E1 as <-.
  rewrite <- !(map_map (fun r => nth needle r 0) (fun v => if 40 <=? v then 1 else 0)). now rewrite E.
Qed.

Lemma csv_rows_spec sample target i : length sample = length target -> (i < length sample)%nat ->
  length (csv_rows sample target) = length sample /\
  nth i (csv_rows sample target) [] = nth i sample [] ++ [nth i target 0].
Proof.
  intros L Hi. unfold csv_rows. split. now apply zip_with_length.
  now rewrite (zip_with_nth (fun (r : list Z) (t : Z) => r ++ [t]) [] 0 [] sample target i L Hi).
Qed.

(* a recorded run of the real code: generate_data(5, 6, cardinality=3,
   structure=[(1, 4), ([2, 3], [[7,8,9],[1,2,3]]), (np.array([4]), [5, 6])],
   ensure_rep=True, random_values=True, low=10, high=20, seed=3) *)
Definition ex_args : args :=
  mkArgs 5 6 3 (Some [SOne 1 (ACard 4); SMany [2; 3]%nat (AValsP [7; 8; 9] [1; 2; 3]); SMany [4%nat] (AVals [5; 6])])
         true true 10 20 3.
Definition ex_stream : list answer :=
  [RSeed 3;
   RChoice [15; 14; 11]; RRandint 2; RChoice [11; 11; 11]; RShuffle [15; 14; 11; 11; 11; 11];
   RChoice [20; 10; 15; 18]; RRandint 2; RChoice [15; 15]; RShuffle [15; 20; 15; 18; 15; 10];
   RChoice [9; 8; 8]; RShuffle [8; 7; 8; 9; 8; 9];
   RChoice [9; 9; 8]; RShuffle [8; 8; 9; 7; 9; 9];
   RRandint 0; RChoice [5; 5; 5; 5]; RShuffle [5; 5; 5; 5; 6; 5]].
Definition ex_X : list (list Z) :=
  [[15; 15; 8; 8; 5]; [14; 20; 7; 8; 5]; [11; 15; 8; 9; 5]; [11; 18; 9; 7; 5]; [11; 15; 8; 9; 6]; [11; 10; 9; 9; 5]].

Example ex_generate : generate ex_args ex_stream = Ok ex_X.
Proof. vm_compute. reflexivity. Qed.
Example ex_wf : wf_structure ex_args = true.
Proof. reflexivity. Qed.
Example ex_valid : valid_dataset ex_args ex_X = true.
Proof. vm_compute. reflexivity. Qed.
Example ex_doms : exists X, generate_full ex_args ex_stream =
  Ok (X, [[15; 14; 11]; [20; 10; 15; 18]; [7; 8; 9]; [7; 8; 9]; [5; 6]]).
Proof. eexists. vm_compute. reflexivity. Qed.
(* a stream violating the assumed library behaviour is rejected (a shuffle that loses a value) *)
Example ex_bad_shuffle :
  generate (mkArgs 1 3 2 None false false 0 1000 7)
           [RSeed 7; RRandint 1; RChoice [0; 1; 1]; RShuffle [1; 1; 1]] = Err 8.
Proof. reflexivity. Qed.
(* outside the int32 precondition the model does not follow the code (which wraps silently) *)
Example ex_out_of_int32 :
  generate (mkArgs 1 2 5 (Some [SOne 0 (AVals [3000000000; 1])]) false false 0 1000 7)
           [RSeed 7; RRandint 0; RChoice [3000000000; 1]; RShuffle [1; 3000000000]] = Err 9.
Proof. reflexivity. Qed.
Example ex_pattern : call_pattern ex_args = [0; 1;2;1;3; 1;2;1;3; 1;3; 1;3; 2;1;3].
Proof. reflexivity. Qed.
Example ex_naive :
  let row v := repeat 10 30 ++ [v] ++ [99] in
  naive 32 3 [RRandintMat [row 39; row 40; row 10]] =
  Ok ([repeat 10 30 ++ [0; 99]; repeat 10 30 ++ [1; 99]; repeat 10 30 ++ [0; 99]], [0; 1; 0]).
Proof. vm_compute. reflexivity. Qed.
