(* C20 — lemmas about the models of Synth/Derived.v. *)
From Coq Require Import List QArith Qround Lia Permutation Sorting.Sorted Lqa.
From Outrank Require Import Common.ListFacts Common.Sort Synth.Derived.
Import ListNotations.
Open Scope Z_scope.

Lemma memZ_In v l : memZ v l = true <-> In v l.
Proof.
  induction l as [|a r IH]; cbn [memZ In]; [split; [discriminate|tauto]|].
  rewrite orb_true_iff, IH, Z.eqb_eq. split; intros [H|H]; auto.
Qed.
Lemma memZ_false v l : memZ v l = false <-> ~ In v l.
Proof. rewrite <- memZ_In. destruct (memZ v l); split; congruence. Qed.

Lemma nodupb_NoDup l : nodupb l = true <-> NoDup l.
Proof. apply (nodupb_iff_of memZ nodupb memZ_In); reflexivity. Qed.

Lemma lenZ_app {A} (a b : list A) : lenZ (a ++ b) = lenZ a + lenZ b.
Proof. unfold lenZ. rewrite app_length. lia. Qed.
Lemma lenZ_nonneg {A} (a : list A) : 0 <= lenZ a.
Proof. unfold lenZ. lia. Qed.
Lemma lenZ_map {A B} (f : A -> B) l : lenZ (map f l) = lenZ l.
Proof. unfold lenZ. rewrite map_length. reflexivity. Qed.
Lemma lenZ_repeat {A} (x : A) k : lenZ (repeat x k) = Z.of_nat k.
Proof. unfold lenZ. rewrite repeat_length. reflexivity. Qed.
Lemma lenZ_nil {A} : lenZ (@nil A) = 0.
Proof. reflexivity. Qed.
Lemma lenZ_cons {A} (a : A) l : lenZ (a :: l) = lenZ l + 1.
Proof. unfold lenZ. cbn [length]. lia. Qed.
Lemma lenZ_pos {A} (l : list A) : l <> [] -> 1 <= lenZ l.
Proof. destruct l; [congruence|]. rewrite lenZ_cons. pose proof (lenZ_nonneg l). lia. Qed.
Lemma lenZ_index {A} (l : list A) i : 0 <= i < lenZ l -> (Z.to_nat i < length l)%nat.
Proof. unfold lenZ. lia. Qed.
Lemma lenZ_to_nat {A} (l : list A) : Z.to_nat (lenZ l) = length l.
Proof. apply Nat2Z.id. Qed.
Lemma lenZ_eq {A B} (a : list A) (b : list B) : length a = length b -> lenZ a = lenZ b.
Proof. unfold lenZ. intros ->. reflexivity. Qed.

Lemma nthZ_In l i : 0 <= i < lenZ l -> In (nthZ l i) l.
Proof. intros H. apply nth_In, lenZ_index, H. Qed.

Lemma in_range_iff n i : in_range n i = true <-> 0 <= i < n.
Proof. unfold in_range. lia. Qed.
Lemma forallb_in_range n l : forallb (in_range n) l = true <-> forall i, In i l -> 0 <= i < n.
Proof. rewrite forallb_forall. split; intros H i Hi; apply in_range_iff, H, Hi. Qed.
Lemma is_perm_spec n l : is_perm n l = true <-> lenZ l = n /\ (forall i, In i l -> 0 <= i < n) /\ NoDup l.
Proof. unfold is_perm. rewrite !andb_true_iff, Z.eqb_eq, forallb_in_range, nodupb_NoDup. tauto. Qed.
Lemma idx_answer_ok_spec n k m ixs :
  idx_answer_ok n k m ixs = true <-> m = n /\ lenZ ixs = k /\ (forall i, In i ixs -> 0 <= i < n) /\ NoDup ixs.
Proof. unfold idx_answer_ok. rewrite !andb_true_iff, !Z.eqb_eq, forallb_in_range, nodupb_NoDup. tauto. Qed.

Lemma zsum_cons a l : zsum (a :: l) = a + zsum l.
Proof. reflexivity. Qed.
Lemma zsum_map_nonneg {A} (f : A -> Z) l : (forall x, 0 <= f x) -> 0 <= zsum (map f l).
Proof.
  intros H. induction l as [|a r IH]; cbn [map]; [reflexivity|]. rewrite zsum_cons. specialize (H a). lia.
Qed.

Lemma zrange_0 a : zrange a 0 = [].
Proof. reflexivity. Qed.
Lemma zrange_1 a : zrange a 1 = [a].
Proof. unfold zrange. cbn [seq map Z.of_nat]. now rewrite Z.add_0_r. Qed.
Lemma zrange_length a k : length (zrange a k) = k.
Proof. unfold zrange. rewrite map_length, seq_length. reflexivity. Qed.
Lemma zrange_In a k c : In c (zrange a k) <-> a <= c < a + Z.of_nat k.
Proof.
  unfold zrange. rewrite in_map_iff. split.
  - intros [t [E Ht]]. apply in_seq in Ht. lia.
  - intros H. exists (Z.to_nat (c - a)). split; [lia|]. apply in_seq. lia.
Qed.
Lemma zrange_NoDup a k : NoDup (zrange a k).
Proof.
  unfold zrange. apply FinFun.Injective_map_NoDup; [|apply seq_NoDup].
  intros x y H. lia.
Qed.
Lemma zrange_nth a k t : (t < k)%nat -> nth t (zrange a k) 0 = a + Z.of_nat t.
Proof.
  intros H. unfold zrange. rewrite (nth_map_lt _ _ _ O) by (rewrite seq_length; exact H).
  rewrite seq_nth by exact H. reflexivity.
Qed.
Lemma map_seq_shift {B} (f : nat -> B) k s len : map f (seq (k + s) len) = map (fun t => f (k + t)%nat) (seq s len).
Proof.
  revert s. induction len as [|len IH]; intros s; [reflexivity|].
  cbn [seq map]. f_equal. rewrite <- IH. f_equal. f_equal. lia.
Qed.
Lemma zrange_app a k1 k2 : zrange a (k1 + k2) = zrange a k1 ++ zrange (a + Z.of_nat k1) k2.
Proof.
  unfold zrange. rewrite seq_app, map_app. f_equal. cbn [plus].
  replace k1 with (k1 + 0)%nat at 1 by lia. rewrite map_seq_shift. apply map_ext. intros t. lia.
Qed.

Lemma nthZ_app_l row ext j : 0 <= j < lenZ row -> nthZ (row ++ ext) j = nthZ row j.
Proof. unfold nthZ, lenZ. intros H. apply app_nth1. lia. Qed.
Lemma nthZ_app_r row ext t : 0 <= t -> nthZ (row ++ ext) (lenZ row + t) = nthZ ext t.
Proof.
  unfold nthZ, lenZ. intros H. rewrite app_nth2 by lia. f_equal. lia.
Qed.
Lemma nthZ_select row idx t : (t < length idx)%nat ->
  nthZ (select row idx) (Z.of_nat t) = nthZ row (norm_idx (lenZ row) (nth t idx 0)).
Proof.
  intros H. unfold select, nthZ at 1. rewrite Nat2Z.id.
  rewrite (nth_map_lt _ _ _ 0) by exact H. reflexivity.
Qed.

Lemma call_ok_rows X idx : call_ok X idx = true ->
  (forall row, In row X -> lenZ row = ncols X) /\ (forall j, In j idx -> - ncols X <= j < ncols X).
Proof.
  unfold call_ok. destruct X as [|r0 X']; [discriminate|]. rewrite andb_true_iff. intros [H1 H2]. split.
  - unfold rect in H1. rewrite forallb_forall in H1. intros row Hr. apply Z.eqb_eq. apply H1. exact Hr.
  - rewrite forallb_forall in H2. intros j Hj. specialize (H2 j Hj). unfold idx_ok in H2. lia.
Qed.

Lemma dup_spec X idx X' fi di : gen_duplicates X idx = Some (X', (fi, di)) ->
  X' = map (fun row => row ++ select row idx) X /\
  forall row, In row X ->
    lenZ row = ncols X /\
    (forall j, 0 <= j < ncols X -> nthZ (row ++ select row idx) j = nthZ row j) /\
    (forall t, (t < length idx)%nat ->
       nthZ (row ++ select row idx) (ncols X + Z.of_nat t) = nthZ row (norm_idx (ncols X) (nth t idx 0)) /\
       0 <= norm_idx (ncols X) (nth t idx 0) < ncols X).
Proof.
  unfold gen_duplicates. destruct (call_ok X idx) eqn:E; [|discriminate]. intros H.
  injection H as E1 E2 E3. subst X' fi di.
  split; [reflexivity|]. intros row Hr. destruct (call_ok_rows _ _ E) as [Hlen Hidx].
  pose proof (Hlen row Hr) as Hl. split; [exact Hl|]. split.
  - intros j Hj. apply nthZ_app_l. lia.
  - intros t Ht. rewrite <- Hl at 1. rewrite nthZ_app_r by lia. rewrite nthZ_select by exact Ht. rewrite Hl.
    split; [reflexivity|]. assert (In (nth t idx 0) idx) by (apply nth_In; exact Ht).
    specialize (Hidx _ H). unfold norm_idx. destruct (Z.ltb_spec (nth t idx 0) 0); lia.
Qed.

Lemma dup_info X idx X' fi di : gen_duplicates X idx = Some (X', (fi, di)) ->
  fi = idx /\ di = zrange (ncols X) (length idx) /\ length di = length idx /\ NoDup di /\
  (forall c, In c di <-> ncols X <= c < ncols X + lenZ idx) /\
  (X <> [] -> ncols X' = ncols X + lenZ idx).
Proof.
  unfold gen_duplicates. destruct (call_ok X idx) eqn:E; [|discriminate]. intros H.
  injection H as E1 E2 E3. subst X' fi di.
  split; [reflexivity|]. split; [reflexivity|]. split; [apply zrange_length|]. split; [apply zrange_NoDup|].
  split; [intros c; apply zrange_In|].
  intros _. destruct X as [|r0 X0]; [discriminate|]. cbn [map ncols]. rewrite lenZ_app. unfold select. rewrite lenZ_map. reflexivity.
Qed.

Lemma dup_prefix_refuted : exists X idx X' fi di,
  gen_duplicates_old X idx = Some (X', (fi, di)) /\ ncols X' = ncols X + 2 /\ di = [ncols X] /\ ~ In (ncols X + 1) di.
Proof.
  exists [[1; 2; 3]; [4; 5; 6]], [0; 1], [[1; 2; 3; 1; 2]; [4; 5; 6; 4; 5]], [0; 1], [3].
  split; [vm_compute; reflexivity|]. split; [reflexivity|]. split; [reflexivity|].
  cbn. intros [H|[]]. discriminate.
Qed.

Lemma map_opt_Forall2 {A B} (f : A -> option B) l l' : map_opt f l = Some l' -> Forall2 (fun a b => f a = Some b) l l'.
Proof.
  revert l'. induction l as [|a r IH]; intros l' H; cbn [map_opt] in H.
  - inversion H. constructor.
  - destruct (f a) eqn:E; [|discriminate]. destruct (map_opt f r) eqn:E2; [|discriminate].
    inversion H; subst. constructor; [exact E|]. apply IH. reflexivity.
Qed.

Lemma combo_spec X f idx X' fi ct ix : gen_combinations X f idx = Some (X', (fi, ct, ix)) ->
  fi = idx /\ ct = f /\ ix = ncols X /\
  Forall2 (fun row row' => exists v, comb_val f (select row idx) = Some v /\ row' = row ++ [v] /\
                                      nthZ row' (ncols X) = v /\ forall j, 0 <= j < ncols X -> nthZ row' j = nthZ row j) X X'.
Proof.
  unfold gen_combinations. destruct (call_ok X idx) eqn:E; [|discriminate].
  destruct (map_opt _ X) as [X1|] eqn:E1; [|discriminate]. intros H.
  injection H as E2 E3 E4 E5. subst X' fi ct ix.
  split; [reflexivity|]. split; [reflexivity|]. split; [reflexivity|].
  destruct (call_ok_rows _ _ E) as [Hlen _].
  apply map_opt_Forall2 in E1. clear E. revert Hlen. generalize (ncols X) as nc. induction E1 as [|row row' r r' H1 _ IH]; intros nc Hlen; constructor.
  - destruct (comb_val f (select row idx)) as [v|] eqn:Ev; [|discriminate]. inversion H1; subst. exists v.
    assert (Hl : lenZ row = nc) by (apply Hlen; now left).
    split; [reflexivity|]. split; [reflexivity|]. split.
    + rewrite <- Hl. replace (lenZ row) with (lenZ row + 0) by lia. rewrite nthZ_app_r by lia. reflexivity.
    + intros j Hj. apply nthZ_app_l. lia.
  - apply IH. intros row0 H0. apply Hlen. now right.
Qed.

Lemma comb_val_linear vals : comb_val CLinear vals = Some (zsum vals). Proof. reflexivity. Qed.
Lemma comb_val_nonlinear vals : comb_val CNonlinear vals = Some (zsum vals). Proof. reflexivity. Qed.
Lemma comb_val_xor a b r : comb_val CXor (a :: b :: r) = Some (fold_left Z.lxor r (Z.lxor a b)). Proof. reflexivity. Qed.
Lemma comb_val_and a b r : comb_val CAnd (a :: b :: r) = Some (fold_left Z.land r (Z.land a b)). Proof. reflexivity. Qed.
Lemma comb_val_or a b r : comb_val COr (a :: b :: r) = Some (fold_left Z.lor r (Z.lor a b)). Proof. reflexivity. Qed.

(* the scalar the code stores for one selected feature is the one-element range *)
Lemma corr_indices_zrange nc idx : idx <> [] -> corr_indices nc idx = zrange nc (length idx).
Proof.
  intros Hne. unfold corr_indices. destruct (Z.ltb_spec 1 (lenZ idx)) as [H|H]; [reflexivity|].
  destruct idx as [|a [|b r]]; [congruence|symmetry; apply zrange_1|rewrite !lenZ_cons in H; pose proof (lenZ_nonneg r); lia].
Qed.
Lemma corr_indices_spec nc idx : idx <> [] ->
  length (corr_indices nc idx) = length idx /\ NoDup (corr_indices nc idx) /\
  forall c, In c (corr_indices nc idx) <-> nc <= c < nc + lenZ idx.
Proof.
  intros Hne. rewrite (corr_indices_zrange nc idx Hne).
  split; [apply zrange_length|]. split; [apply zrange_NoDup|]. intros c. apply zrange_In.
Qed.

Definition st_nc (s : sstate) : Z := snd (fst s).
Definition st_info (s : sstate) : info := snd s.
Definition corr_ok (o : op) : Prop := match o with OCorr idx _ => idx <> [] | _ => True end.
Definition added (o : op) : Z :=
  match o with ODup idx => lenZ idx | OCombo _ _ => 1 | OCorr idx _ => lenZ idx | _ => 0 end.

Lemma step_listed s o : corr_ok o ->
  st_nc (step false s o) = st_nc s + added o /\
  Permutation (listed (st_info (step false s o))) (listed (st_info s) ++ zrange (st_nc s) (Z.to_nat (added o))).
Proof.
  destruct s as [[nr nc] [[[[[cb cr] du] lb] no] dn]]. unfold st_nc, st_info.
  destruct o as [idx|f idx|idx r|rel n|m p|k n]; intros Hok; cbn [step fst snd added listed]; (split; [lia|]).
  4-6: cbn [Z.to_nat]; rewrite zrange_0, app_nil_r; reflexivity.
  - rewrite lenZ_to_nat, map_app, concat_app. cbn [map concat snd]. rewrite app_nil_r, !app_assoc. reflexivity.
  - rewrite map_app. cbn [map snd]. change (Z.to_nat 1) with 1%nat. rewrite zrange_1.
    rewrite <- !app_assoc. apply Permutation_app_head. cbn [app].
    apply Permutation_sym. rewrite app_assoc. apply Permutation_sym. apply Permutation_cons_append.
  - cbn [corr_ok] in Hok. rewrite map_app, concat_app. cbn [map concat snd fst]. rewrite app_nil_r.
    rewrite (corr_indices_zrange nc idx Hok), lenZ_to_nat.
    rewrite <- !app_assoc. apply Permutation_app_head. apply Permutation_app_head. apply Permutation_app_comm.
Qed.

Lemma added_nonneg o : 0 <= added o.
Proof. destruct o; cbn [added]; try lia; apply lenZ_nonneg. Qed.

Lemma run_listed ops : forall s, Forall corr_ok ops ->
  st_nc (fold_left (step false) ops s) = st_nc s + zsum (map added ops) /\
  Permutation (listed (st_info (fold_left (step false) ops s)))
              (listed (st_info s) ++ zrange (st_nc s) (Z.to_nat (zsum (map added ops)))).
Proof.
  induction ops as [|o r IH]; intros s H.
  - cbn [fold_left map]. change (zsum []) with 0. split; [lia|]. cbn [Z.to_nat]. rewrite zrange_0, app_nil_r. reflexivity.
  - inversion H as [|? ? Ho Hr]; subst. cbn [fold_left map]. rewrite zsum_cons. destruct (step_listed s o Ho) as [E1 P1].
    destruct (IH (step false s o) Hr) as [E2 P2]. split; [rewrite E2, E1; lia|].
    rewrite P2, P1, E1. rewrite <- app_assoc. apply Permutation_app_head.
    pose proof (zsum_map_nonneg added r added_nonneg) as Hs. pose proof (added_nonneg o) as Ha.
    rewrite Z2Nat.inj_add by lia. rewrite zrange_app. rewrite Z2Nat.id by lia. reflexivity.
Qed.

Lemma info_exact nr nc ops : Forall corr_ok ops ->
  st_nc (session nr nc ops) = nc + zsum (map added ops) /\
  Permutation (listed (st_info (session nr nc ops))) (zrange nc (Z.to_nat (st_nc (session nr nc ops) - nc))).
Proof.
  intros H. unfold session. destruct (run_listed ops (nr, nc, info0) H) as [E P]. split; [exact E|].
  rewrite P, E. unfold st_info, st_nc, info0, listed. cbn [fst snd map concat app].
  replace (nc + zsum (map added ops) - nc) with (zsum (map added ops)) by lia. reflexivity.
Qed.

Lemma info_old_refuted : exists nr nc ops, Forall corr_ok ops /\
  st_nc (session_old nr nc ops) = nc + 2 /\ listed (st_info (session_old nr nc ops)) = [nc] /\
  ~ In (nc + 1) (listed (st_info (session_old nr nc ops))).
Proof.
  exists 4, 3, [ODup [0; 1]]. split; [repeat constructor|]. split; [reflexivity|]. split; [reflexivity|].
  cbn. intros [H|[]]. discriminate.
Qed.

Lemma qlt_bool_iff a b : qlt_bool a b = true <-> (a < b)%Q.
Proof.
  unfold qlt_bool. rewrite negb_true_iff, <- not_true_iff_false, Qle_bool_iff.
  split; [apply Qnot_le_lt|apply Qlt_not_le].
Qed.

(* the label of a decision value: number of cut points strictly below it *)
Definition label (cuts : list Q) (x : Z) : Z := lenZ (filter (fun c => qlt_bool c (inject_Z x)) cuts).

Lemma labels_of_label d cuts : labels_of d cuts = map (label cuts) d.
Proof. reflexivity. Qed.

Lemma label_cons c cuts x : label (c :: cuts) x = (if qlt_bool c (inject_Z x) then 1 else 0) + label cuts x.
Proof. unfold label, lenZ. cbn [filter]. destruct (qlt_bool c (inject_Z x)); cbn [length]; lia. Qed.

Lemma label_range cuts x : 0 <= label cuts x <= lenZ cuts.
Proof.
  unfold label, lenZ. pose proof (filter_length_le (fun c => qlt_bool c (inject_Z x)) cuts). lia.
Qed.

Lemma label_mono cuts a b : a <= b -> label cuts a <= label cuts b.
Proof.
  intros Hab. induction cuts as [|c r IH]; [reflexivity|]. rewrite !label_cons.
  destruct (qlt_bool c (inject_Z a)) eqn:Ea; [|destruct (qlt_bool c (inject_Z b)); lia].
  assert (Eb : qlt_bool c (inject_Z b) = true); [|rewrite Eb; lia].
  apply qlt_bool_iff. apply qlt_bool_iff in Ea. eapply Qlt_le_trans; [exact Ea|]. rewrite <- Zle_Qle. exact Hab.
Qed.

Lemma labels_mono d cuts i j : (i < length d)%nat -> (j < length d)%nat ->
  nth i d 0 <= nth j d 0 -> nth i (labels_of d cuts) 0 <= nth j (labels_of d cuts) 0.
Proof.
  intros Hi Hj H. rewrite labels_of_label. rewrite !(nth_map_lt _ _ _ 0) by assumption. apply label_mono. exact H.
Qed.

(* [sort] is the insertion sort of Common/Sort.v at Z.leb *)
Lemma sort_perm l : Permutation (sort l) l.
Proof. exact (isort_perm Z.leb l). Qed.
Lemma sort_In x l : In x (sort l) <-> In x l.
Proof. exact (isort_In Z.leb x l). Qed.
Lemma lenZ_sort l : lenZ (sort l) = lenZ l.
Proof. unfold lenZ. f_equal. exact (isort_length Z.leb l). Qed.
Lemma sort_nonnil l : l <> [] -> sort l <> [].
Proof. intros H E. apply H, Permutation_nil. rewrite <- E. apply sort_perm. Qed.

Lemma sort_strict l : NoDup l -> StronglySorted Z.lt (sort l).
Proof.
  intros Hn. assert (Hn' : NoDup (sort l)) by (eapply Permutation_NoDup; [symmetry; apply sort_perm|exact Hn]).
  assert (Hs : StronglySorted (fun x y => (x <=? y) = true) (sort l)) by (apply (isort_sorted Z.leb); intros; lia).
  clear Hn. induction Hs as [|x r Hr IH Hall]; [constructor|]. inversion Hn'; subst.
  constructor; [apply IH; assumption|]. rewrite Forall_forall in *. intros y Hy. specialize (Hall y Hy).
  assert (x <> y) by (intros ->; contradiction). lia.
Qed.

Lemma sorted_nth_lt s : StronglySorted Z.lt s -> forall i k, (i < k)%nat -> (k < length s)%nat -> nth i s 0 < nth k s 0.
Proof.
  induction 1 as [|x r Hr IH Hall]; intros i k Hik Hk; cbn [length] in Hk; [lia|].
  destruct k as [|k]; [lia|]. destruct i as [|i]; cbn [nth].
  - rewrite Forall_forall in Hall. apply Hall. apply nth_In. lia.
  - apply IH; lia.
Qed.
(* on a list sorted for R, a predicate that passes down along R holds of a prefix:
   position m belongs to it exactly when m is below the number of elements it holds of *)
Lemma sorted_count_nth {A} (R : A -> A -> Prop) (P : A -> bool) d l :
  StronglySorted R l -> (forall a b, R a b -> P b = true -> P a = true) ->
  forall m, (m < length l)%nat -> ((m < length (filter P l))%nat <-> P (nth m l d) = true).
Proof.
  intros Hs HP. induction Hs as [|x r Hr IH Hall]; intros m Hm; cbn [length] in Hm; [lia|].
  rewrite Forall_forall in Hall. cbn [filter]. destruct (P x) eqn:Ex.
  - destruct m as [|m]; cbn [nth length].
    + split; [intros _; exact Ex|lia].
    + rewrite <- (IH m) by lia. lia.
  - (* P fails at x, hence at everything after x *)
    assert (Hr0 : forall y, In y r -> P y = false).
    { intros y Hy. destruct (P y) eqn:Ey; [|reflexivity]. rewrite (HP x y (Hall y Hy) Ey) in Ex. discriminate. }
    rewrite (filter_none P r Hr0). cbn [length]. split; [lia|]. intros H. exfalso.
    destruct m as [|m]; cbn [nth] in H; [congruence|]. rewrite Hr0 in H by (apply nth_In; lia). discriminate.
Qed.

Lemma nthZ_lt s i k : StronglySorted Z.lt s -> 0 <= i < k -> k < lenZ s -> nthZ s i < nthZ s k.
Proof. intros Hs Hi Hk. apply sorted_nth_lt; [exact Hs|lia|apply lenZ_index; lia]. Qed.

Lemma inject_Z_sub a b : inject_Z (a - b) = (inject_Z a - inject_Z b)%Q.
Proof. unfold Z.sub, Qminus. rewrite inject_Z_plus, inject_Z_opp. reflexivity. Qed.

Lemma Qfloor_frac x : (inject_Z (Qfloor x) <= x)%Q /\ (x < inject_Z (Qfloor x) + 1)%Q.
Proof. split; [apply Qfloor_le|]. pose proof (Qlt_floor x) as H. rewrite inject_Z_plus in H. exact H. Qed.

Lemma pc_unit pc : (0 <= pc)%Q -> (pc <= 100)%Q -> (0 <= pc / 100)%Q /\ (pc / 100 <= 1)%Q.
Proof. intros H0 H1. split; [apply Qle_shift_div_l; [reflexivity|lra]|apply Qle_shift_div_r; [reflexivity|lra]]. Qed.

(* np.percentile's virtual index (N-1) q, floored: the position in the sorted data below the q-quantile *)
Definition vindex (N : Z) (q : Q) : Z := Qfloor (inject_Z (N - 1) * q).

Lemma vindex_range N q : 1 <= N -> (0 <= q)%Q -> (q <= 1)%Q -> 0 <= vindex N q <= N - 1.
Proof.
  intros HN H0 H1. assert (HM : (0 <= inject_Z (N - 1))%Q) by (rewrite <- (Zle_Qle 0); lia). unfold vindex. split.
  - change 0 with (Qfloor (inject_Z 0)). apply Qfloor_resp_le. change (inject_Z 0) with 0%Q. nra.
  - rewrite <- (Qfloor_Z (N - 1)) at 2. apply Qfloor_resp_le. nra.
Qed.

Lemma vindex_mono N q q' : 1 <= N -> (q <= q')%Q -> vindex N q <= vindex N q'.
Proof.
  intros HN H. assert (HM : (0 <= inject_Z (N - 1))%Q) by (rewrite <- (Zle_Qle 0); lia).
  apply Qfloor_resp_le. nra.
Qed.

Lemma vindex_near N q :
  (inject_Z N * q - q - 1 < inject_Z (vindex N q))%Q /\ (inject_Z (vindex N q) <= inject_Z N * q - q)%Q.
Proof.
  destruct (Qfloor_frac (inject_Z (N - 1) * q)) as [H0 H1]. fold (vindex N q) in H0, H1.
  rewrite inject_Z_sub in H0, H1. change (inject_Z 1) with 1%Q in H0, H1. split; lra.
Qed.

(* how many decision values lie at or below a cut point *)
Definition count_le (d : list Z) (c : Q) : Z := lenZ (filter (fun x => Qle_bool (inject_Z x) c) d).

Lemma count_le_perm d d' c : Permutation d d' -> count_le d c = count_le d' c.
Proof. intros P. unfold count_le, lenZ. now rewrite (filter_length_perm _ d d' P). Qed.

Lemma count_le_bracket s a c : StronglySorted Z.lt s -> 0 <= a <= lenZ s - 1 ->
  (inject_Z (nthZ s a) <= c)%Q -> (a + 1 <= lenZ s - 1 -> (c < inject_Z (nthZ s (a + 1)))%Q) ->
  count_le s c = a + 1.
Proof.
  intros Hs Ha Hlo Hhi. set (P := fun x => Qle_bool (inject_Z x) c).
  assert (HP : forall x y, x < y -> P y = true -> P x = true).
  { unfold P. intros x y Hxy Hy. apply Qle_bool_iff. apply Qle_bool_iff in Hy. rewrite Zlt_Qlt in Hxy. lra. }
  pose proof (sorted_count_nth Z.lt P 0 s Hs HP) as Hn. pose proof (filter_length_le P s) as Hle.
  unfold count_le, lenZ in *. fold P.
  (* s_a is among the values at or below c, s_(a+1) is not *)
  assert (H1 : (Z.to_nat a < length (filter P s))%nat) by (apply Hn; [lia|]; apply Qle_bool_iff; exact Hlo).
  destruct (Z.le_gt_cases (a + 1) (Z.of_nat (length s) - 1)) as [Ha1|Ha1]; [|lia].
  assert (H2 : ~ (S (Z.to_nat a) < length (filter P s))%nat); [|lia].
  rewrite Hn by lia. unfold P. rewrite Qle_bool_iff. specialize (Hhi Ha1). unfold nthZ in Hhi.
  replace (Z.to_nat (a + 1)) with (S (Z.to_nat a)) in Hhi by lia. lra.
Qed.

Lemma percentile_bracket s q : StronglySorted Z.lt s -> s <> [] -> (0 <= q)%Q -> (q <= 1)%Q ->
  let j := vindex (lenZ s) q in
  0 <= j <= lenZ s - 1 /\
  (inject_Z (nthZ s j) <= percentile s q)%Q /\
  (j + 1 <= lenZ s - 1 -> (percentile s q < inject_Z (nthZ s (j + 1)))%Q).
Proof.
  intros Hs Hne Hq0 Hq1 j.
  pose proof (vindex_range (lenZ s) q (lenZ_pos s Hne) Hq0 Hq1) as Hj. fold j in Hj. split; [exact Hj|].
  destruct (Qfloor_frac (inject_Z (lenZ s - 1) * q)) as [Hg0 Hg1]. fold (vindex (lenZ s) q) in Hg0, Hg1. fold j in Hg0, Hg1.
  unfold percentile. fold (vindex (lenZ s) q). fold j.
  set (vi := (inject_Z (lenZ s - 1) * q)%Q) in *. set (g := (vi - inject_Z j)%Q).
  assert (Hg : (0 <= g)%Q /\ (g < 1)%Q) by (unfold g; split; lra).
  destruct (Z.le_gt_cases (j + 1) (lenZ s - 1)) as [Hlt|Hge].
  - rewrite Z.min_l by lia.
    assert (Hab : nthZ s j < nthZ s (j + 1)) by (apply nthZ_lt; [exact Hs|lia|lia]).
    rewrite Zlt_Qlt in Hab. rewrite (inject_Z_sub (nthZ s (j + 1)) (nthZ s j)).
    split; [|intros _]; nra.
  - rewrite Z.min_r by lia. replace (lenZ s - 1) with j by lia. rewrite Z.sub_diag.
    split; [|lia]. change (inject_Z 0) with 0%Q. lra.
Qed.

Lemma labels_prop d q : NoDup d -> d <> [] -> (0 <= q)%Q -> (q <= 1)%Q ->
  count_le d (percentile (sort d) q) = vindex (lenZ d) q + 1.
Proof.
  intros Hnd Hne Hq0 Hq1.
  destruct (percentile_bracket (sort d) q (sort_strict d Hnd) (sort_nonnil d Hne) Hq0 Hq1) as [Hj [Hlo Hhi]].
  rewrite <- (count_le_perm _ _ _ (sort_perm d)), <- (lenZ_sort d).
  apply count_le_bracket; [apply sort_strict; exact Hnd|exact Hj|exact Hlo|exact Hhi].
Qed.

Lemma labels_above d q : NoDup d -> d <> [] -> (0 <= q)%Q -> (q <= 1)%Q ->
  lenZ (filter (fun x => qlt_bool (percentile (sort d) q) (inject_Z x)) d) = lenZ d - 1 - Qfloor (inject_Z (lenZ d - 1) * q).
Proof.
  intros Hnd Hne Hq0 Hq1. pose proof (labels_prop d q Hnd Hne Hq0 Hq1) as H.
  pose proof (filter_negb_length (fun x => Qle_bool (inject_Z x) (percentile (sort d) q)) d) as Hc.
  unfold qlt_bool, count_le, vindex, lenZ in *. lia.
Qed.

Lemma upd_length i v l : length (upd i v l) = length l.
Proof. revert i. induction l as [|a r IH]; intros [|i]; cbn [upd length]; auto. Qed.
Lemma upd_In i v l x : In x (upd i v l) -> x = v \/ In x l.
Proof.
  revert i. induction l as [|a r IH]; intros [|i]; cbn [upd In]; try tauto.
  - intros [H|H]; auto.
  - intros [H|H]; auto. destruct (IH _ H); auto.
Qed.
Lemma diff_count_refl c : diff_count c c = 0.
Proof. induction c as [|a r IH]; [reflexivity|]. cbn [diff_count]. rewrite Z.eqb_refl, IH. reflexivity. Qed.
Lemma diff_count_nonneg a b : 0 <= diff_count a b.
Proof. revert b. induction a as [|x r IH]; intros [|y s]; cbn [diff_count]; try lia. specialize (IH s). destruct (x =? y); lia. Qed.
Lemma diff_upd c0 i v c : diff_count c0 (upd i v c) <= diff_count c0 c + 1.
Proof.
  revert i c. induction c0 as [|x r IH]; intros i c; [cbn [diff_count]; lia|].
  destruct c as [|y s]; [destruct i; cbn [upd diff_count]; lia|].
  destruct i as [|i]; cbn [upd diff_count].
  - destruct (x =? v), (x =? y); lia.
  - specialize (IH i s). lia.
Qed.
Lemma nth_upd_same i v l d : (i < length l)%nat -> nth i (upd i v l) d = v.
Proof. revert i. induction l as [|a r IH]; intros [|i] H; cbn [length] in H; cbn [upd nth]; try lia; auto. apply IH. lia. Qed.
Lemma nth_upd_other i k v l d : i <> k -> nth k (upd i v l) d = nth k l d.
Proof.
  revert i k. induction l as [|a r IH]; intros [|i] [|k] H; cbn [upd nth]; try reflexivity; try lia. apply IH. lia.
Qed.

Lemma dedup_In l x : In x (dedup l) <-> In x l.
Proof.
  induction l as [|a r IH]; cbn [dedup]; [tauto|].
  destruct (memZ a r) eqn:E; cbn [In]; rewrite IH; [|tauto].
  apply memZ_In in E. split; [auto|]. intros [<-|H]; auto.
Qed.
Lemma dedup_NoDup l : NoDup (dedup l).
Proof.
  induction l as [|a r IH]; cbn [dedup]; [constructor|]. destruct (memZ a r) eqn:E; [exact IH|].
  constructor; [|exact IH]. rewrite dedup_In. apply memZ_false. exact E.
Qed.
Lemma uniq_In y x : In x (uniq y) <-> In x y.
Proof. unfold uniq. rewrite dedup_In. apply sort_In. Qed.
Lemma uniq_NoDup y : NoDup (uniq y).
Proof. apply dedup_NoDup. Qed.

Lemma skipn_incl {A} n (l : list A) x : In x (skipn n l) -> In x l.
Proof. intros H. rewrite <- (firstn_skipn n l). apply in_or_app. now right. Qed.
Lemma pyslice_incl l a b x : In x (pyslice l a b) -> In x l.
Proof. unfold pyslice. intros H. apply In_firstn_In, skipn_incl in H. exact H. Qed.

Lemma lookup_map_In {A} (F : A -> Z * list Z) L k s : lookup k (map F L) = Some s -> exists i, In i L /\ s = snd (F i).
Proof.
  induction L as [|a r IH]; cbn [map lookup]; [discriminate|].
  destruct (F a) as [k' s'] eqn:E. destruct (k =? k').
  - intros H. inversion H; subst. exists a. split; [now left|]. rewrite E. reflexivity.
  - intros H. destruct (IH H) as [i [Hi Hs]]. exists i. split; [now right|exact Hs].
Qed.

Lemma upl_incl cum fs lv lc k s : lookup k (upl cum fs lv lc) = Some s -> incl s fs.
Proof.
  unfold upl. intros H. apply lookup_map_In in H. destruct H as [i [_ ->]]. cbn [snd].
  intros x Hx. destruct cum; [|destruct i as [|i']]; apply (proj1 (dedup_In _ _)) in Hx; eapply pyslice_incl; exact Hx.
Qed.

Lemma union_lookup_In keys d vals v : union_lookup keys d = Some vals -> In v vals ->
  exists k s, In k keys /\ lookup k d = Some s /\ In v s.
Proof.
  revert vals. induction keys as [|k r IH]; intros vals H Hv; cbn [union_lookup] in H.
  - inversion H; subst. destruct Hv.
  - destruct (lookup k d) as [s|] eqn:E; [|discriminate]. destruct (union_lookup r d) as [t|]; [|discriminate].
    inversion H; subst. apply in_app_or in Hv as [Hv|Hv].
    + exists k, s. split; [now left|]. split; assumption.
    + destruct (IH t eq_refl Hv) as (k' & s' & Hk & Hs & Hv'). exists k', s'. split; [now right|]. split; assumption.
Qed.

Lemma flip1_cases lv d ysort inds ix col st :
  let poss := possible lv (nthZ ysort ix) in
  (forall col' st', flip1 lv d ysort inds ix col st = Ok (col', st') ->
     exists k s v, lookup k d = Some s /\ In v s /\ col' = updZ (nthZ inds ix) v col) /\
  (flip1 lv d ysort inds ix col st = Raises ->
     union_lookup poss d = None \/ lookup (nthZ ysort ix) d = None \/ poss = [] \/
     exists k, In k poss /\ (lookup k d = None \/ lookup k d = Some [])).
Proof.
  intros poss. unfold flip1. fold poss.
  destruct (union_lookup poss d) as [vals|] eqn:Ev; [|split; [discriminate|now left]].
  destruct (lookup (nthZ ysort ix) d) as [own|]; [|split; [discriminate|now right; left]].
  destruct (filter (fun v => negb (memZ v own)) vals) as [|w vals'] eqn:Ef.
  - destruct poss as [|p0 pr] eqn:Ep; [split; [discriminate|now right; right; left]|].
    destruct st as [|[m l|v|hi k|l|m l] st1]; try (split; discriminate).
    destruct ((hi =? lenZ (p0 :: pr)) && in_range hi k) eqn:Ec; [|split; discriminate].
    apply andb_true_iff in Ec as [Eh Er]. apply Z.eqb_eq in Eh. apply in_range_iff in Er.
    assert (Hk : In (nthZ (p0 :: pr) k) (p0 :: pr)) by (apply nthZ_In; lia).
    destruct (lookup (nthZ (p0 :: pr) k) d) as [[|v0 vs]|] eqn:El.
    + split; [discriminate|]. intros _. right; right; right. exists (nthZ (p0 :: pr) k). auto.
    + destruct st1 as [|[m l|v|hi' k'|l|m l] st2]; try (split; discriminate).
      destruct (memZ v (v0 :: vs)) eqn:Em; [|split; discriminate]. apply memZ_In in Em.
      split; [|discriminate]. intros ? ? H. injection H as <- _. exists (nthZ (p0 :: pr) k), (v0 :: vs), v. auto.
    + split; [discriminate|]. intros _. right; right; right. exists (nthZ (p0 :: pr) k). auto.
  - destruct st as [|[m l|v|hi k|l|m l] st1]; try (split; discriminate).
    destruct (memZ v (w :: vals')) eqn:Em; [|split; discriminate].
    apply memZ_In in Em. rewrite <- Ef in Em. apply filter_In in Em as [Em _].
    destruct (union_lookup_In _ _ _ _ Ev Em) as (k & s & _ & Hs & Hv).
    split; [|discriminate]. intros ? ? H. injection H as <- _. exists k, s, v. auto.
Qed.

Lemma flip1_spec cum fs lv lc ysort inds ix col st col' st' :
  flip1 lv (upl cum fs lv lc) ysort inds ix col st = Ok (col', st') ->
  exists pos v, col' = upd pos v col /\ In v fs.
Proof.
  intros H. apply flip1_cases in H as (k & s & v & Hs & Hv & ->).
  exists (Z.to_nat (nthZ inds ix)), v. split; [reflexivity|]. exact (upl_incl _ _ _ _ _ _ Hs v Hv).
Qed.

Lemma flips_spec cum fs lv lc ysort inds c0 ixs : forall col st col' st',
  flips lv (upl cum fs lv lc) ysort inds ixs col st = Ok (col', st') ->
  length col' = length col /\
  (forall x, In x col' -> In x col \/ In x fs) /\
  diff_count c0 col' <= diff_count c0 col + lenZ ixs.
Proof.
  induction ixs as [|ix r IH]; intros col st col' st' H; cbn [flips] in H.
  - inversion H; subst. split; [reflexivity|]. split; [auto|]. rewrite lenZ_nil. lia.
  - destruct (flip1 lv (upl cum fs lv lc) ysort inds ix col st) as [[col1 st1]| |] eqn:E1; try discriminate.
    destruct (flip1_spec _ _ _ _ _ _ _ _ _ _ _ E1) as [pos [v [-> Hv]]].
    destruct (IH _ _ _ _ H) as [HL [HI HD]]. split; [rewrite HL; apply upd_length|]. split.
    + intros x Hx. destruct (HI x Hx) as [Hx'|Hx']; [|auto]. apply upd_In in Hx'. destruct Hx' as [->|Hx']; auto.
    + pose proof (diff_upd c0 pos v col). rewrite lenZ_cons. lia.
Qed.

Definition col_cat_ok (k : Z) (c o : list Z) : Prop :=
  length o = length c /\ diff_count c o <= k /\ forall v, In v o -> In v c.

Lemma noise_col_cat_spec cum lv lc ysort inds n k col st col' st' :
  (forall i, In i inds -> 0 <= i < n) -> lenZ col = n ->
  noise_col_cat cum lv lc ysort inds n k col st = Ok (col', st') -> col_cat_ok k col col'.
Proof.
  intros Hin Hlen. unfold noise_col_cat.
  destruct st as [|[m ixs|v|hi k'|l|m l] st1]; try discriminate.
  destruct (idx_answer_ok n k m ixs) eqn:Ea; [|discriminate]. intros H.
  apply idx_answer_ok_spec in Ea as (_ & Ek & _).
  destruct (flips_spec _ _ _ _ _ _ col _ _ _ _ _ H) as [HL [HI HD]]. rewrite diff_count_refl in HD.
  split; [exact HL|]. split; [lia|]. intros v Hv. destruct (HI v Hv) as [H1|H1]; [exact H1|].
  apply in_map_iff in H1 as [i [<- Hi]]. apply nthZ_In. rewrite Hlen. apply Hin, Hi.
Qed.

Lemma cols_loop_Forall2 (f : list Z -> list ans -> res (list Z * list ans)) (Q : list Z -> Prop) (R : list Z -> list Z -> Prop) :
  (forall c st c' st', Q c -> f c st = Ok (c', st') -> R c c') ->
  forall cols st out st', Forall Q cols -> cols_loop f cols st = Ok (out, st') -> Forall2 R cols out.
Proof.
  intros Hf. induction cols as [|c r IH]; intros st out st' HQ H; cbn [cols_loop] in H.
  - inversion H. constructor.
  - inversion HQ; subst. destruct (f c st) as [[c1 st1]| |] eqn:E1; try discriminate.
    destruct (cols_loop f r st1) as [[r1 st2]| |] eqn:E2; try discriminate. inversion H; subst.
    constructor; [eapply Hf; eassumption|eapply IH; eassumption].
Qed.

Lemma finish_Ok {A} (r : res (A * list ans)) a : finish r = Ok a -> r = Ok (a, []).
Proof. destruct r as [[a' [|x st]]| |]; cbn [finish]; intros H; inversion H; reflexivity. Qed.

Lemma nflip_nonneg n p : 0 <= n -> p_ok n p = true -> 0 <= nflip n p <= n.
Proof.
  intros Hn Hp. unfold p_ok in Hp. apply andb_true_iff in Hp. destruct Hp as [H0 H1].
  apply Qle_bool_iff in H0. unfold nflip in *.
  assert (Hn' : (0 <= inject_Z n)%Q) by (rewrite <- (Zle_Qle 0); exact Hn).
  split; [|lia].
  change 0 with (Qfloor (inject_Z 0)). apply Qfloor_resp_le. change (inject_Z 0) with 0%Q. nra.
Qed.

(* what the oracle check on the code's int(n*p) guarantees *)
Definition kflip_spec (n : Z) (p : Q) (k : Z) : Prop :=
  nflip n p - 1 <= k <= nflip n p + 1 /\
  (let g := (inject_Z n * p - inject_Z (nflip n p))%Q in
   small_dyadic n p = true \/ ((eps9 <= g)%Q /\ (g <= 1 - eps9)%Q) -> k = nflip n p).
Lemma kflip_ok_spec n p k : kflip_ok n p k = true -> kflip_spec n p k.
Proof.
  unfold kflip_ok, kflip_spec, nflip. set (x := (inject_Z n * p)%Q). set (f := Qfloor x).
  destruct (small_dyadic n p) eqn:Es.
  - intros H. apply Z.eqb_eq in H. split; [lia|]. intros _. exact H.
  - destruct (qlt_bool (x - inject_Z f) eps9) eqn:E1.
    + intros H. apply qlt_bool_iff in E1. split; [lia|]. intros [Hd|[Hg _]]; [discriminate|]. exfalso. lra.
    + destruct (qlt_bool (1 - eps9) (x - inject_Z f)) eqn:E2.
      * intros H. apply qlt_bool_iff in E2. split; [lia|]. intros [Hd|[_ Hg]]; [discriminate|]. exfalso. lra.
      * intros H. apply Z.eqb_eq in H. split; [lia|]. intros _. exact H.
Qed.

Lemma noise_cat_spec cum cols y p k inds st out :
  Forall (fun c => lenZ c = lenZ y) cols ->
  noise_cat cum cols y p k inds st = Ok out ->
  Forall2 (col_cat_ok k) cols out /\ kflip_spec (lenZ y) p k.
Proof.
  intros Hc. unfold noise_cat.
  destruct (is_perm (lenZ y) inds && sortedb (map (nthZ y) inds)) eqn:E1; cbn [negb]; [|discriminate].
  destruct (p_ok (lenZ y) p) eqn:E2; cbn [negb]; [|discriminate].
  destruct (kflip_ok (lenZ y) p k) eqn:E3; cbn [negb]; [|discriminate]. intros H. apply finish_Ok in H.
  split; [|apply kflip_ok_spec; exact E3].
  apply andb_true_iff in E1 as [E1 _]. apply is_perm_spec in E1 as (_ & Hin & _).
  eapply (cols_loop_Forall2 _ (fun c => lenZ c = lenZ y)); [|exact Hc|exact H].
  intros c st0 c' st0' Hl Hf. eapply noise_col_cat_spec; [exact Hin|exact Hl|exact Hf].
Qed.

Lemma forallb_combine_Forall2 {A B} (g : A * B -> bool) a b :
  length a = length b -> forallb g (combine a b) = true -> Forall2 (fun x y => g (x, y) = true) a b.
Proof.
  revert b. induction a as [|x r IH]; intros [|y s] HL H; cbn [length] in HL; try lia; [constructor|].
  cbn [combine forallb] in H. apply andb_true_iff in H. destruct H as [H1 H2]. constructor; [exact H1|]. apply IH; [lia|exact H2].
Qed.

Lemma Forall2_weaken {A B} (R R' : A -> B -> Prop) a b : (forall x y, R x y -> R' x y) -> Forall2 R a b -> Forall2 R' a b.
Proof. intros HR H. induction H; constructor; auto. Qed.

Lemma same_shape_Forall2 (g : list Z * list Z -> bool) cols out :
  same_shape cols out = true -> forallb g (combine cols out) = true ->
  Forall2 (fun c o => length c = length o /\ g (c, o) = true) cols out.
Proof.
  unfold same_shape. rewrite andb_true_iff, Nat.eqb_eq. intros [HL HS] HC.
  apply forallb_combine_Forall2 in HC; [|exact HL]. apply forallb_combine_Forall2 in HS; [|exact HL].
  clear HL. induction HC as [|c o r s H1 _ IH]; [constructor|]. inversion HS as [|? ? ? ? H2 HS']; subst.
  constructor; [|apply IH; exact HS']. split; [apply Nat.eqb_eq; exact H2|exact H1].
Qed.

Lemma noise_cat_check_sound cols n p k out : noise_cat_check cols n p k out = true ->
  Forall2 (col_cat_ok k) cols out /\ kflip_spec n p k.
Proof.
  unfold noise_cat_check. rewrite !andb_true_iff. intros [[HS HK] HC].
  split; [|apply kflip_ok_spec; exact HK].
  eapply Forall2_weaken; [|exact (same_shape_Forall2 _ _ _ HS HC)]. cbn [fst snd].
  intros c o [HL H1]. apply andb_true_iff in H1 as [Hd Hm]. split; [symmetry; exact HL|]. split; [lia|].
  rewrite forallb_forall in Hm. intros v Hv. apply memZ_In, Hm, Hv.
Qed.

Lemma countZ_cons v a l : countZ v (a :: l) = (if v =? a then 1 else 0) + countZ v l.
Proof. unfold countZ, lenZ. cbn [filter]. destruct (v =? a); cbn [length]; lia. Qed.
Lemma countZ_nonneg v l : 0 <= countZ v l.
Proof. apply lenZ_nonneg. Qed.
Lemma countZ_pos v l : 0 < countZ v l <-> In v l.
Proof.
  unfold countZ, lenZ. change 0 with (Z.of_nat 0). rewrite <- Nat2Z.inj_lt, filter_length_pos. split.
  - intros (x & Hx & E). apply Z.eqb_eq in E. subst x. exact Hx.
  - intros H. exists v. split; [exact H|apply Z.eqb_refl].
Qed.
Lemma countZ_zero v l : ~ In v l -> countZ v l = 0.
Proof. intros H. pose proof (countZ_nonneg v l). rewrite <- countZ_pos in H. lia. Qed.
Lemma countZ_upd m i l : (i < length l)%nat -> nth i l 0 <> m -> countZ m (upd i m l) = countZ m l + 1.
Proof.
  revert i. induction l as [|a r IH]; intros [|i] Hi Hn; cbn [length] in Hi; try lia; cbn [upd nth] in *; rewrite !countZ_cons.
  - rewrite Z.eqb_refl. destruct (Z.eqb_spec m a); [congruence|]. lia.
  - rewrite IH by (try lia; exact Hn). lia.
Qed.

Lemma missing_fold_count m ixs : forall col,
  NoDup ixs -> (forall i, In i ixs -> 0 <= i < lenZ col) -> (forall i, In i ixs -> nthZ col i <> m) ->
  countZ m (fold_left (fun c ix => updZ ix m c) ixs col) = countZ m col + lenZ ixs.
Proof.
  induction ixs as [|ix r IH]; intros col Hnd Hr Hm; cbn [fold_left].
  - rewrite lenZ_nil. lia.
  - inversion Hnd; subst. rewrite IH.
    + unfold updZ. rewrite countZ_upd, lenZ_cons; [lia|apply lenZ_index, Hr; now left|apply (Hm ix); now left].
    + assumption.
    + intros i Hi. unfold updZ, lenZ. rewrite upd_length. apply Hr. now right.
    + intros i Hi. unfold updZ, nthZ. rewrite nth_upd_other.
      * apply (Hm i). now right.
      * intros E. assert (ix = i).
        { pose proof (Hr ix (or_introl eq_refl)). pose proof (Hr i (or_intror Hi)). lia. }
        subst i. contradiction.
Qed.

Lemma upd_Forall2 (R : Z -> Z -> Prop) m : (forall a, R a m) ->
  forall c o i, Forall2 R c o -> Forall2 R c (upd i m o).
Proof.
  intros HR c o i H. revert i. induction H as [|a b c o Hab Hco IH]; intros [|i]; cbn [upd]; constructor; auto.
Qed.
Lemma Forall2_refl_eq (R : Z -> Z -> Prop) : (forall a, R a a) -> forall c, Forall2 R c c.
Proof. intros HR c. induction c; constructor; auto. Qed.

Definition col_missing_ok (n k marker : Z) (c o : list Z) : Prop :=
  Forall2 (fun a b => b = a \/ b = marker) c o /\ (~ In marker c -> countZ marker o = k).

Lemma noise_col_missing_spec n k marker col st col' st' : lenZ col = n ->
  noise_col_missing n k marker col st = Ok (col', st') -> col_missing_ok n k marker col col'.
Proof.
  intros Hlen. unfold noise_col_missing.
  destruct st as [|[m ixs|v|hi k'|l|m l] st1]; try discriminate.
  destruct (idx_answer_ok n k m ixs) eqn:Ea; [|discriminate]. intros H. inversion H; subst col' st'. clear H.
  apply idx_answer_ok_spec in Ea as (_ & Hk & Hr & Hnd). rewrite <- Hlen in Hr.
  split.
  - assert (G : forall js c o, Forall2 (fun a b => b = a \/ b = marker) c o ->
        Forall2 (fun a b => b = a \/ b = marker) c (fold_left (fun c ix => updZ ix marker c) js o)).
    { intros js. induction js as [|ix r IH]; intros c o Hco; cbn [fold_left]; [exact Hco|]. apply IH. unfold updZ. apply upd_Forall2; [auto|exact Hco]. }
    apply G. apply Forall2_refl_eq. auto.
  - intros Hnm. rewrite missing_fold_count; [rewrite (countZ_zero _ _ Hnm); lia|exact Hnd|exact Hr|].
    intros i Hi E. apply Hnm. rewrite <- E. apply nthZ_In, Hr, Hi.
Qed.

Lemma noise_missing_spec cols n p k marker st out :
  Forall (fun c => lenZ c = n) cols ->
  noise_missing cols n p k marker st = Ok out ->
  Forall2 (col_missing_ok n k marker) cols out /\ kflip_spec n p k.
Proof.
  intros Hc. unfold noise_missing. destruct (p_ok n p); cbn [negb]; [|discriminate].
  destruct (kflip_ok n p k) eqn:E3; cbn [negb]; [|discriminate]. intros H. apply finish_Ok in H.
  split; [|apply kflip_ok_spec; exact E3].
  eapply (cols_loop_Forall2 _ (fun c => lenZ c = n)); [|exact Hc|exact H].
  intros c st0 c' st0' Hl Hf. eapply noise_col_missing_spec; eassumption.
Qed.

Lemma noise_missing_check_sound cols n p k marker out :
  noise_missing_check cols n p k marker out = true -> Forall2 (col_missing_ok n k marker) cols out /\ kflip_spec n p k.
Proof.
  unfold noise_missing_check. rewrite !andb_true_iff. intros [[HS HK] HC].
  split; [|apply kflip_ok_spec; exact HK].
  eapply Forall2_weaken; [|exact (same_shape_Forall2 _ _ _ HS HC)]. cbn [fst snd].
  intros c o [HL H1]. apply andb_true_iff in H1 as [Hp Hm]. split.
  - apply forallb_combine_Forall2 in Hp; [|exact HL].
    eapply Forall2_weaken; [|exact Hp]. cbn [fst snd]. intros a b Hab. lia.
  - intros Hn. apply orb_true_iff in Hm. destruct Hm as [Hm|Hm]; [apply memZ_In in Hm; contradiction|apply Z.eqb_eq; exact Hm].
Qed.

Definition down_ok (X : mat) (y : list Z) (k : Z) (Xd : mat) (yd : list Z) : Prop :=
  length Xd = length yd /\
  (forall lab, In lab (uniq y) -> countZ lab yd = k) /\
  (forall lab, In lab yd -> In lab y) /\
  Forall (fun ry => In ry (combine X y)) (combine Xd yd).

Lemma countZ_app v a b : countZ v (a ++ b) = countZ v a + countZ v b.
Proof. unfold countZ. rewrite filter_app, lenZ_app. reflexivity. Qed.
Lemma countZ_repeat_same v k : countZ v (repeat v k) = Z.of_nat k.
Proof. induction k as [|k IH]; [reflexivity|]. cbn [repeat]. rewrite countZ_cons, Z.eqb_refl, IH. lia. Qed.
Lemma countZ_repeat_other v w k : v <> w -> countZ v (repeat w k) = 0.
Proof. intros H. apply countZ_zero. intros Hin. apply repeat_spec in Hin. congruence. Qed.
Lemma countZ_perm v l l' : Permutation l l' -> countZ v l = countZ v l'.
Proof. intros H. unfold countZ, lenZ. rewrite (filter_length_perm _ l l' H). reflexivity. Qed.

Lemma combine_app {A B} (a a' : list A) (b b' : list B) : length a = length b ->
  combine (a ++ a') (b ++ b') = combine a b ++ combine a' b'.
Proof.
  revert b. induction a as [|x r IH]; intros [|y s] H; cbn [length] in H; try lia; [reflexivity|].
  cbn [app combine]. f_equal. apply IH. lia.
Qed.

Lemma Forall_combine_map_repeat {A} (P : A * Z -> Prop) (f : Z -> A) lab ixs : forall k,
  (forall i, In i ixs -> P (f i, lab)) -> Forall P (combine (map f ixs) (repeat lab k)).
Proof.
  induction ixs as [|i r IH]; intros k H; [constructor|]. destruct k as [|k]; [constructor|].
  cbn [map repeat combine]. constructor; [apply H; now left|]. apply IH. intros j Hj. apply H. now right.
Qed.

Lemma rows_of_In X y lab row : In row (rows_of X y lab) -> In (row, lab) (combine X y).
Proof.
  unfold rows_of. intros H. apply in_map_iff in H. destruct H as [[r l] [E H]]. cbn [fst] in E. subst r.
  apply filter_In in H. destruct H as [H E]. cbn [snd] in E. apply Z.eqb_eq in E. subst l. exact H.
Qed.

Lemma down_loop_spec X y n labels : forall st Xd yd st', NoDup labels ->
  down_loop X y n labels st = Ok ((Xd, yd), st') ->
  length Xd = length yd /\
  (forall lab, In lab labels -> countZ lab yd = n) /\
  (forall lab, In lab yd -> In lab labels) /\
  Forall (fun ry => In ry (combine X y)) (combine Xd yd) /\
  lenZ yd = n * lenZ labels.
Proof.
  induction labels as [|lab r IH]; intros st Xd yd st' Hnd H; cbn [down_loop] in H.
  - inversion H; subst. split; [reflexivity|]. split; [intros ? []|]. split; [intros ? []|]. split; [constructor|].
    rewrite !lenZ_nil. lia.
  - destruct st as [|[m l|v|hi k'|l|m ixs] st1]; try discriminate.
    destruct ((m =? lenZ (rows_of X y lab)) && (lenZ ixs =? n) && forallb (in_range m) ixs) eqn:Ea; [|discriminate].
    destruct (down_loop X y n r st1) as [[[Xr yr] st2]| |] eqn:Er; try discriminate.
    inversion H; subst Xd yd st'. clear H. inversion Hnd as [|? ? Hnotin Hnd']; subst.
    destruct (IH _ _ _ _ Hnd' Er) as (HL & HC & HI & HF & HN).
    rewrite !andb_true_iff, !Z.eqb_eq, forallb_in_range in Ea. destruct Ea as [[Em Ek] Hr]. pose proof (lenZ_nonneg ixs) as Hn.
    assert (HLa : length (map (fun i => nth (Z.to_nat i) (rows_of X y lab) []) ixs) = length (repeat lab (Z.to_nat n))).
    { now rewrite map_length, repeat_length, <- Ek, lenZ_to_nat. }
    split; [rewrite !app_length; lia|]. split; [|split; [|split]].
    + intros lab' [<-|Hl]; rewrite countZ_app.
      * rewrite countZ_repeat_same. rewrite (countZ_zero lab yr); [lia|]. intros Hin. apply Hnotin. apply HI. exact Hin.
      * rewrite countZ_repeat_other; [rewrite HC by exact Hl; lia|]. intros ->. contradiction.
    + intros lab' Hin. apply in_app_or in Hin. destruct Hin as [Hin|Hin]; [apply repeat_spec in Hin; left; congruence|right; apply HI; exact Hin].
    + rewrite combine_app by exact HLa. apply Forall_app. split; [|exact HF].
      apply Forall_combine_map_repeat. intros i Hi. apply rows_of_In, nth_In, lenZ_index. rewrite <- Em. apply Hr, Hi.
    + rewrite lenZ_app, lenZ_repeat, lenZ_cons, HN. lia.
Qed.

Lemma is_perm_Permutation n perm : is_perm (Z.of_nat n) perm = true -> Permutation (map Z.to_nat perm) (seq 0 n).
Proof.
  intros H. apply is_perm_spec in H as (HL & Hr & Hnd). apply NoDup_Permutation_bis.
  - apply NoDup_map_inj_on; [|exact Hnd]. intros a b Ha Hb E. pose proof (Hr a Ha). pose proof (Hr b Hb). lia.
  - rewrite map_length, seq_length. unfold lenZ in HL. lia.
  - intros k Hk. apply in_map_iff in Hk. destruct Hk as [z [<- Hz]]. specialize (Hr z Hz). apply in_seq. lia.
Qed.

Lemma perm_map_nth {A} (l : list A) d perm : is_perm (lenZ l) perm = true ->
  Permutation (map (fun i => nth (Z.to_nat i) l d) perm) l.
Proof.
  intros H. apply is_perm_Permutation in H.
  transitivity (map (fun i => nth i l d) (seq 0 (length l))); [|rewrite map_nth_seq; reflexivity].
  rewrite <- (map_map Z.to_nat (fun i => nth i l d)). apply Permutation_map. exact H.
Qed.

Lemma down_ok_reorder X y k Xd yd perm : is_perm (lenZ Xd) perm = true -> down_ok X y k Xd yd ->
  down_ok X y k (map (fun i => nth (Z.to_nat i) Xd []) perm) (map (nthZ yd) perm).
Proof.
  intros Ep (HL & HC & HI & HF).
  assert (Py : Permutation (map (nthZ yd) perm) yd).
  { apply (perm_map_nth yd 0). rewrite <- (lenZ_eq _ _ HL). exact Ep. }
  split; [rewrite !map_length; reflexivity|]. split; [|split].
  - intros lab Hl. rewrite (countZ_perm lab _ _ Py). apply HC. exact Hl.
  - intros lab Hl. apply HI. eapply Permutation_in; [exact Py|exact Hl].
  - unfold nthZ. rewrite combine_map_map. apply Forall_forall. intros ry Hry. apply in_map_iff in Hry. destruct Hry as [i [<- Hi]].
    rewrite Forall_forall in HF. apply HF. rewrite <- combine_nth by exact HL. apply nth_In.
    rewrite combine_length, <- HL, Nat.min_id.
    apply is_perm_spec in Ep as (_ & Hr & _). apply lenZ_index, Hr, Hi.
Qed.

Lemma downsample_spec X y n reshuffle st Xd yd :
  downsample X y n reshuffle st = Ok (Xd, yd) ->
  exists k, down_n y n = Some k /\ 0 <= k /\ down_ok X y k Xd yd /\ lenZ Xd = k * lenZ (uniq y).
Proof.
  unfold downsample. destruct (down_n y n) as [k|] eqn:Ek; [|discriminate].
  destruct (Z.ltb_spec k 0) as [Hk|Hk]; [discriminate|].
  destruct (down_loop X y k (uniq y) st) as [[[X1 y1] st1]| |] eqn:El; try discriminate.
  destruct (down_loop_spec X y k (uniq y) _ _ _ _ (uniq_NoDup y) El) as (HL & HC & HI & HF & HN).
  assert (Hok : down_ok X y k X1 y1).
  { split; [exact HL|]. split; [exact HC|]. split; [|exact HF]. intros lab Hl. apply uniq_In, HI, Hl. }
  assert (HN1 : lenZ X1 = k * lenZ (uniq y)) by (rewrite (lenZ_eq _ _ HL); exact HN).
  intros H. exists k. split; [reflexivity|]. split; [exact Hk|].
  destruct reshuffle.
  - destruct st1 as [|[m l|v|hi k'|perm|m l] [|a st2]]; try discriminate.
    destruct (is_perm (lenZ X1) perm) eqn:Ep; [|discriminate]. inversion H; subst Xd yd. clear H.
    split; [apply down_ok_reorder; assumption|]. rewrite lenZ_map.
    apply is_perm_spec in Ep as (Ep & _). rewrite Ep. exact HN1.
  - destruct st1; [|discriminate]. inversion H; subst Xd yd. split; assumption.
Qed.

Lemma downsample_check_sound X y n Xd yd : downsample_check X y n Xd yd = true ->
  exists k, down_n y n = Some k /\ down_ok X y k Xd yd.
Proof.
  unfold downsample_check. destruct (down_n y n) as [k|]; [|discriminate]. rewrite !andb_true_iff.
  intros [[[HL HC] HI] HF]. exists k. split; [reflexivity|]. split; [apply Nat.eqb_eq; exact HL|]. split; [|split].
  - rewrite forallb_forall in HC. intros lab Hl. apply Z.eqb_eq. apply HC. exact Hl.
  - rewrite forallb_forall in HI. intros lab Hl. apply uniq_In. apply memZ_In. apply HI. exact Hl.
  - apply Forall_forall. intros [r l] Hrl. rewrite forallb_forall in HF. specialize (HF _ Hrl). apply existsb_exists in HF.
    destruct HF as [[r' l'] [Hin E]]. cbn [fst snd] in E. apply andb_true_iff in E. destruct E as [E1 E2].
    apply (eqb_list_eq Z.eqb Z.eqb_eq) in E1. apply Z.eqb_eq in E2. subst. exact Hin.
Qed.

Lemma label_percents_range n p pcs : label_percents n p = Some pcs -> Forall (fun pc => (0 <= pc)%Q /\ (pc <= 100)%Q) pcs.
Proof.
  unfold label_percents. destruct (negb _); [discriminate|].
  match goal with |- match ?e with _ => _ end = _ -> _ => destruct e as [l|]; [|discriminate] end.
  destruct (forallb _ l) eqn:E; [|discriminate]. intros H. inversion H; subst.
  rewrite forallb_forall in E. apply Forall_forall. intros pc Hpc. specialize (E pc Hpc).
  apply andb_true_iff in E. destruct E as [E1 E2]. split; apply Qle_bool_iff; assumption.
Qed.

(* fix b9eb3ad: a class distribution given as a sequence (list or ndarray alike) with n > 2 classes is honoured:
   the cut percents are the cumulative sums of the first n-1 requested proportions, not multiples of 100/n *)
Lemma label_percents_list n ps :
  2 < n -> lenZ ps = n -> Qle_bool (qsum ps) 1 = true ->
  forallb (fun pc => Qle_bool 0 pc && Qle_bool pc 100) (prefix_sums 0%Q (map (fun x => (x * 100)%Q) (firstn (Z.to_nat (n - 1)) ps))) = true ->
  label_percents n (PList ps) = Some (prefix_sums 0%Q (map (fun x => (x * 100)%Q) (firstn (Z.to_nat (n - 1)) ps))).
Proof.
  intros Hn HL Hs Hr. unfold label_percents. rewrite Hs, HL, Z.leb_refl. cbn [andb negb].
  destruct (Z.ltb_spec 2 n); [|lia]. rewrite Z.eqb_refl. rewrite Hr. reflexivity.
Qed.

Lemma gen_labels_spec d n p y : gen_labels d n p = Some y ->
  exists pcs, label_percents n p = Some pcs /\ d <> [] /\ y = map (label (cut_points d pcs)) d /\ length y = length d.
Proof.
  unfold gen_labels. destruct d as [|d0 dr]; [discriminate|]. destruct (label_percents n p) as [pcs|]; [|discriminate].
  intros H. injection H as <-. exists pcs. split; [reflexivity|]. split; [discriminate|]. split; [reflexivity|].
  exact (map_length _ (d0 :: dr)).
Qed.

Lemma labels_class_sizes d n p y : gen_labels d n p = Some y -> NoDup d ->
  exists pcs, label_percents n p = Some pcs /\ y = map (label (cut_points d pcs)) d /\
    forall pc, In pc pcs ->
      lenZ (filter (fun x => qlt_bool (percentile (sort d) (pc / 100)) (inject_Z x)) d)
      = lenZ d - 1 - Qfloor (inject_Z (lenZ d - 1) * (pc / 100)).
Proof.
  intros H Hnd. destruct (gen_labels_spec _ _ _ _ H) as [pcs [Hp [Hne [Hy _]]]]. exists pcs. split; [exact Hp|]. split; [exact Hy|].
  intros pc Hpc. pose proof (label_percents_range _ _ _ Hp) as Hr. rewrite Forall_forall in Hr. destruct (Hr pc Hpc) as [H0 H1].
  destruct (pc_unit pc H0 H1). apply labels_above; assumption.
Qed.

Lemma percentile_mono s q q' : StronglySorted Z.lt s -> s <> [] -> (0 <= q)%Q -> (q <= q')%Q -> (q' <= 1)%Q ->
  (percentile s q <= percentile s q')%Q.
Proof.
  intros Hs Hne H0 Hqq H1.
  assert (Hq1 : (q <= 1)%Q) by lra. assert (Hq0' : (0 <= q')%Q) by lra.
  destruct (percentile_bracket s q Hs Hne H0 Hq1) as [Hj [Hlo Hhi]].
  destruct (percentile_bracket s q' Hs Hne Hq0' H1) as [Hj' [Hlo' Hhi']].
  pose proof (vindex_mono (lenZ s) q q' (lenZ_pos s Hne) Hqq) as Hjj.
  set (j := vindex (lenZ s) q) in *. set (j' := vindex (lenZ s) q') in *.
  assert (HM : (0 <= inject_Z (lenZ s - 1))%Q) by (rewrite <- (Zle_Qle 0); lia).
  destruct (Z.eq_dec j j') as [E|NE].
  - unfold percentile. fold (vindex (lenZ s) q) (vindex (lenZ s) q'). fold j j'. rewrite <- E.
    set (a := nthZ s j). set (b := nthZ s (Z.min (j + 1) (lenZ s - 1))).
    assert (Hab : a <= b).
    { unfold a, b. destruct (Z.le_gt_cases (j + 1) (lenZ s - 1)).
      - rewrite Z.min_l by lia. apply Z.lt_le_incl, nthZ_lt; [exact Hs|lia|lia].
      - rewrite Z.min_r by lia. replace (lenZ s - 1) with j by lia. lia. }
    rewrite Zle_Qle in Hab. rewrite (inject_Z_sub b a).
    assert (Hv : (inject_Z (lenZ s - 1) * q <= inject_Z (lenZ s - 1) * q')%Q) by nra.
    set (vi := (inject_Z (lenZ s - 1) * q)%Q) in *. set (vi' := (inject_Z (lenZ s - 1) * q')%Q) in *. nra.
  - assert (H2 : j + 1 <= lenZ s - 1) by lia. specialize (Hhi H2).
    assert (H3 : (inject_Z (nthZ s (j + 1)) <= inject_Z (nthZ s j'))%Q).
    { rewrite <- Zle_Qle. destruct (Z.eq_dec (j + 1) j') as [->|N2]; [lia|].
      apply Z.lt_le_incl, nthZ_lt; [exact Hs|lia|lia]. }
    lra.
Qed.

(* among non-decreasing cuts those strictly below x are a prefix: at most m of them iff the m-th is not below x *)
Lemma label_le_nth cuts x m : StronglySorted Qle cuts -> (m < length cuts)%nat ->
  (label cuts x <=? Z.of_nat m) = Qle_bool (inject_Z x) (nth m cuts 0%Q).
Proof.
  intros Hs Hm.
  assert (HP : forall a b, (a <= b)%Q -> qlt_bool b (inject_Z x) = true -> qlt_bool a (inject_Z x) = true).
  { intros a b Hab Hb. apply qlt_bool_iff. apply qlt_bool_iff in Hb. eapply Qle_lt_trans; eassumption. }
  pose proof (sorted_count_nth Qle (fun c => qlt_bool c (inject_Z x)) 0%Q cuts Hs HP m Hm) as Hn.
  unfold qlt_bool at 2 in Hn. unfold label, lenZ.
  destruct (Qle_bool (inject_Z x) (nth m cuts 0%Q)); cbn [negb] in Hn.
  - apply Z.leb_le. assert (~ (m < length (filter (fun c => qlt_bool c (inject_Z x)) cuts))%nat) by (rewrite Hn; discriminate). lia.
  - apply Z.leb_gt. apply proj2 in Hn. specialize (Hn eq_refl). lia.
Qed.

Lemma sorted_map {A B} (R : A -> A -> Prop) (R' : B -> B -> Prop) (f : A -> B) l :
  (forall a b, In a l -> In b l -> R a b -> R' (f a) (f b)) -> StronglySorted R l -> StronglySorted R' (map f l).
Proof.
  intros Hf H. induction H as [|a r Hr IH Hall]; [constructor|]. cbn [map]. constructor.
  - apply IH. intros x y Hx Hy. apply Hf; now right.
  - rewrite Forall_forall in *. intros y Hy. apply in_map_iff in Hy. destruct Hy as [x [<- Hx]].
    apply Hf; [now left|now right|apply Hall; exact Hx].
Qed.

Lemma labels_cumulative_count d rc m : StronglySorted Qle rc -> (m < length rc)%nat ->
  lenZ (filter (fun yi => yi <=? Z.of_nat m) (map (label rc) d)) = count_le d (nth m rc 0%Q).
Proof.
  intros Hs Hm. unfold count_le, lenZ. rewrite filter_map_comm, map_length. do 2 f_equal.
  apply filter_ext. intros x. apply label_le_nth; assumption.
Qed.

Lemma labels_cumulative d pcs m : NoDup d -> d <> [] ->
  Forall (fun pc => (0 <= pc)%Q /\ (pc <= 100)%Q) pcs -> StronglySorted Qle pcs -> (m < length pcs)%nat ->
  lenZ (filter (fun yi => yi <=? Z.of_nat m) (labels_of d (cut_points d pcs)))
  = vindex (lenZ d) (nth m pcs 0%Q / 100) + 1.
Proof.
  intros Hnd Hne Hr Hsrt Hm. rewrite Forall_forall in Hr.
  assert (Hq : forall pc, In pc pcs -> (0 <= pc / 100)%Q /\ (pc / 100 <= 1)%Q).
  { intros pc Hpc. destruct (Hr pc Hpc). now apply pc_unit. }
  assert (Hcs : StronglySorted Qle (cut_points d pcs)).
  { unfold cut_points. eapply sorted_map; [|exact Hsrt]. intros a b Ha Hb Hab. cbv beta.
    destruct (Hq a Ha), (Hq b Hb). apply percentile_mono; try assumption; [now apply sort_strict|now apply sort_nonnil|].
    apply Qmult_le_compat_r; [exact Hab|]. discriminate. }
  rewrite labels_of_label, labels_cumulative_count by (try exact Hcs; unfold cut_points; rewrite map_length; exact Hm).
  unfold cut_points. rewrite (nth_map_lt (fun pc => percentile (sort d) (pc / 100)) pcs m 0%Q) by exact Hm.
  destruct (Hq _ (nth_In _ 0%Q Hm)). now apply labels_prop.
Qed.

Lemma labels_count d cuts :
  labels_of d cuts = map (label cuts) d /\
  (forall x, label cuts x = lenZ (filter (fun c => qlt_bool c (inject_Z x)) cuts)) /\
  (forall c x, qlt_bool c x = true <-> (c < x)%Q) /\
  (forall x, 0 <= label cuts x <= lenZ cuts) /\
  (forall a b, a <= b -> label cuts a <= label cuts b).
Proof.
  split; [reflexivity|]. split; [reflexivity|]. split; [apply qlt_bool_iff|]. split; [apply label_range|apply label_mono].
Qed.

(* the comparison at a cut point is strict: a decision value equal to the cut stays in the lower class;
   the >= variant (a plausible rewrite) differs exactly there *)
Lemma labels_strict_matters : exists d cuts, labels_of d cuts <> labels_of_ge d cuts.
Proof. exists [1; 2; 3], [inject_Z 2]. vm_compute. discriminate. Qed.

(* categorical noise on labels that are not 0..k-1: the per-label dictionary is indexed by position -> KeyError *)
Lemma noise_cat_needs_standard_labels :
  forall cum, noise_cat cum [[1; 4; 7; 0; 3; 9]; [20; 50; 80; 10; 30; 90]] [1; 2; 1; 2; 2; 1] (1 # 2) 3 [0; 2; 5; 1; 3; 4] [AIdx 6 [5; 2; 4]] = Raises.
Proof. intros [|]; vm_compute; reflexivity. Qed.

(* non-vacuity: each theorem's hypotheses are satisfied by concrete inputs (recorded from real runs where an oracle is involved) *)
Example ex_dup : gen_duplicates [[1; 2; 3]; [4; 5; 6]] [0; -1] = Some ([[1; 2; 3; 1; 3]; [4; 5; 6; 4; 6]], ([0; -1], [3; 4])).
Proof. vm_compute. reflexivity. Qed.
Example ex_combo : gen_combinations [[1; 2; 3]; [4; 5; 6]] CXor [0; 1; -1] = Some ([[1; 2; 3; 0]; [4; 5; 6; 7]], ([0; 1; -1], CXor, 3)).
Proof. vm_compute. reflexivity. Qed.
Example ex_session :
  let s := session 4 3 [ODup [0; 2]; OCombo CXor [0; 1; -1]; ODup [1]; OCorr [2] (1 # 2); ONoise true (1 # 3); OCorr [0; 1] (1 # 4)] in
  st_nc s = 10 /\ listed (st_info s) = [5; 7; 8; 9; 3; 4; 6].
Proof. vm_compute. split; reflexivity. Qed.
Example ex_labels_prop :
  let d := [50; 10; 90; 30; 70; 110; 20; 80; 60; 100; 40] in
  NoDup d /\ lenZ (filter (fun x => Qle_bool (inject_Z x) (percentile (sort d) (3 # 10))) d) = 4
  /\ Qfloor (inject_Z (lenZ d - 1) * (3 # 10)) + 1 = 4.
Proof. split; [apply nodupb_NoDup; vm_compute; reflexivity|]. vm_compute. split; reflexivity. Qed.
(* b9eb3ad: 11 tie-free values, distribution (0.2, 0.3, 0.5) -> classes of 3, 3, 5; the uniform cut points would give 4, 3, 4 *)
Example ex_labels_ndarray :
  let d := [50; 10; 90; 30; 70; 110; 20; 80; 60; 100; 40] in
  gen_labels d 3 (PList [1 # 5; 3 # 10; 1 # 2]) = Some [1; 0; 2; 0; 2; 2; 0; 2; 1; 2; 1] /\
  gen_labels d 3 (PScalar (1 # 2)) = Some [1; 0; 2; 0; 1; 2; 0; 2; 1; 2; 0].
Proof. vm_compute. split; reflexivity. Qed.
Example ex_noise_cat :
  noise_cat false [[1; 4; 7; 0; 3; 9]; [20; 50; 80; 10; 30; 90]; [3; 6; 10; 5; 3; 9]] [0; 1; 0; 1; 2; 2] (1 # 2) 3 [0; 2; 1; 3; 4; 5]
    [AIdx 6 [5; 2; 4]; AVal 7; AVal 1; AVal 7; AIdx 6 [2; 1; 4]; AVal 20; AVal 50; AVal 20; AIdx 6 [4; 2; 1]; AVal 3; AVal 3; AVal 6]
  = Ok [[1; 1; 7; 0; 7; 7]; [20; 20; 50; 10; 20; 90]; [3; 3; 6; 5; 3; 9]].
Proof. vm_compute. reflexivity. Qed.
Example ex_noise_missing :
  noise_missing [[1; 4; 7; 0; 3; 9]; [20; 50; 80; 10; 30; 90]] 6 (1 # 2) 3 (-1) [AIdx 6 [5; 2; 4]; AIdx 6 [5; 1; 4]]
  = Ok [[1; 4; -1; 0; -1; -1]; [20; -1; 80; 10; -1; -1]].
Proof. vm_compute. reflexivity. Qed.
Example ex_downsample :
  downsample [[1; 20; 3]; [4; 50; 6]; [7; 80; 10]; [0; 10; 5]; [3; 30; 3]; [9; 90; 9]; [1; 1; 1]] [0; 1; 0; 1; 2; 2; 0] None true
    [ASample 3 [0; 1]; ASample 2 [1; 0]; ASample 2 [1; 0]; APerm [2; 1; 4; 0; 3; 5]]
  = Ok ([[0; 10; 5]; [7; 80; 10]; [9; 90; 9]; [1; 20; 3]; [4; 50; 6]; [3; 30; 3]], [1; 0; 2; 0; 1; 2]).
Proof. vm_compute. reflexivity. Qed.
Example ex_labels_cumulative :
  let d := [50; 10; 90; 30; 70; 110; 20; 80; 60; 100; 40] in
  let y := labels_of d (cut_points d [20 # 1; 50 # 1]) in
  y = [1; 0; 2; 0; 2; 2; 0; 2; 1; 2; 1] /\
  lenZ (filter (fun yi => yi <=? 0) y) = 3 /\ lenZ (filter (fun yi => yi <=? 1) y) = 6 /\
  Qfloor (inject_Z 10 * ((20 # 1) / 100)) + 1 = 3 /\ Qfloor (inject_Z 10 * ((50 # 1) / 100)) + 1 = 6.
Proof. vm_compute. repeat split; reflexivity. Qed.

(* labels with np.percentile as an oracle: what is true of the code, doubles included *)

(* tie-free up to double rounding: distinct decision values differ by more than 1e-15 relative
   (automatic for integers below 5e14) *)
Definition separated (d : list Z) : Prop :=
  forall x y, In x d -> In y d -> x < y -> Z.abs x + Z.abs y < 10 ^ 15 * (y - x).

Lemma bracket_count s a c : StronglySorted Z.lt s -> separated s -> 0 <= a <= lenZ s - 1 -> bracket s a c = true ->
  count_le s c = a + 1.
Proof.
  intros Hs Hsep Ha Hb. unfold bracket in Hb. rewrite !andb_true_iff, !orb_true_iff in Hb. destruct Hb as [[Hlo _] Hhi].
  apply Qle_bool_iff in Hlo. apply count_le_bracket; [exact Hs|exact Ha|exact Hlo|]. intros Ha1.
  rewrite Z.min_l in Hhi by lia.
  assert (Hlt : nthZ s a < nthZ s (a + 1)) by (apply nthZ_lt; [exact Hs|lia|lia]).
  destruct Hhi as [[Hhi|Hhi]|Hhi]; [apply qlt_bool_iff; exact Hhi|lia|].
  (* a near tie would contradict the separation of the two neighbours *)
  exfalso. unfold near_tie in Hhi.
  pose proof (Hsep _ _ (nthZ_In s a ltac:(lia)) (nthZ_In s (a + 1) ltac:(lia)) Hlt). lia.
Qed.

(* the count the oracle contract pins down: floor+1, or one off when the virtual index is within 1e-9 of an integer *)
Definition count_near (N : Z) (pc : Q) (cnt : Z) : Prop :=
  let vi := (inject_Z (N - 1) * (pc / 100))%Q in
  let j := Qfloor vi in
  j <= cnt <= j + 2 /\ ((eps9 <= vi - inject_Z j)%Q /\ (vi - inject_Z j <= 1 - eps9)%Q -> cnt = j + 1).

Lemma cut_ok_count s pc c : StronglySorted Z.lt s -> separated s -> s <> [] -> cut_ok s pc c = true ->
  count_near (lenZ s) pc (count_le s c).
Proof.
  intros Hs Hsep Hne H. unfold cut_ok in H. rewrite !andb_true_iff in H. destruct H as [[H0 H1] H].
  apply Qle_bool_iff in H0, H1. destruct (pc_unit pc H0 H1) as [Hq0 Hq1].
  pose proof (vindex_range (lenZ s) (pc / 100) (lenZ_pos s Hne) Hq0 Hq1) as Hj.
  unfold count_near. unfold vindex in Hj. set (vi := (inject_Z (lenZ s - 1) * (pc / 100))%Q) in *. set (j := Qfloor vi) in *.
  rewrite !orb_true_iff in H. destruct H as [[H|H]|H].
  - rewrite (bracket_count s j c Hs Hsep Hj H). split; [lia|]. intros _. reflexivity.
  - rewrite !andb_true_iff in H. destruct H as [[Hg Hj1] Hb]. apply qlt_bool_iff in Hg.
    rewrite (bracket_count s (j - 1) c Hs Hsep) by (try exact Hb; lia). split; [lia|]. intros [Hg1 _]. exfalso. lra.
  - rewrite !andb_true_iff in H. destruct H as [[Hg Hj1] Hb]. apply qlt_bool_iff in Hg.
    rewrite (bracket_count s (j + 1) c Hs Hsep) by (try exact Hb; lia). split; [lia|]. intros [_ Hg1]. exfalso. lra.
Qed.

Lemma forallb2_Forall2 {A B} (f : A -> B -> bool) l m : forallb2 f l m = true -> Forall2 (fun a b => f a b = true) l m.
Proof.
  revert m. induction l as [|a r IH]; intros [|b t] H; cbn [forallb2] in H; try discriminate; [constructor|].
  apply andb_true_iff in H. destruct H as [H1 H2]. constructor; [exact H1|apply IH; exact H2].
Qed.

Lemma qsortedb_sorted l : qsortedb l = true -> StronglySorted Qle l.
Proof.
  induction l as [|a r IH]; intros H; [constructor|]. destruct r as [|b t]; [repeat constructor|].
  cbn [qsortedb] in H. apply andb_true_iff in H. destruct H as [Hab Hr]. apply Qle_bool_iff in Hab.
  specialize (IH Hr). constructor; [exact IH|]. inversion IH as [|? ? _ Hall]; subst.
  constructor; [exact Hab|]. eapply Forall_impl; [|exact Hall]. intros z Hz. eapply Qle_trans; eassumption.
Qed.

Lemma gen_labels_o_spec honour d n p rperc rcuts y : gen_labels_o honour d n p rperc rcuts = Ok y -> NoDup d -> separated d ->
  exists req rp rc, requested_percents honour n p = Some req /\
    rp = used_part (length req) rperc /\ rc = used_part (length req) rcuts /\
    y = map (label rc) d /\
    Forall2 (fun a b => qclose a b = true) rp req /\
    Forall2 (fun pc c => count_near (lenZ d) pc (count_le d c)) rp rc /\
    (qsortedb req = true -> StronglySorted Qle rc).
Proof.
  unfold gen_labels_o. destruct d as [|d0 dr] eqn:Ed; [discriminate|]. rewrite <- Ed.
  destruct (requested_percents honour n p) as [req|]; [|discriminate].
  set (rp := used_part (length req) rperc). set (rc := used_part (length req) rcuts).
  destruct (forallb2 qclose rp req && forallb2 (cut_ok (sort d)) rp rc && (negb (qsortedb req) || qsortedb rc)) eqn:E; [|discriminate].
  intros H Hnd Hsep. injection H as <-. rewrite !andb_true_iff in E. destruct E as [[E1 E2] E3].
  exists req, rp, rc. split; [reflexivity|]. split; [reflexivity|]. split; [reflexivity|]. split; [reflexivity|].
  split; [apply forallb2_Forall2; exact E1|]. split.
  - apply forallb2_Forall2 in E2. eapply Forall2_weaken; [|exact E2]. cbv beta. intros pc c Hc.
    assert (Hne : d <> []) by (rewrite Ed; discriminate).
    assert (Hsep' : separated (sort d)) by (intros x y Hx Hy; apply Hsep; apply sort_In; assumption).
    rewrite <- (lenZ_sort d), (count_le_perm d (sort d) c) by (symmetry; apply sort_perm).
    exact (cut_ok_count (sort d) pc c (sort_strict d Hnd) Hsep' (sort_nonnil d Hne) Hc).
  - intros Hq. rewrite Hq in E3. cbn [negb orb] in E3. apply qsortedb_sorted. exact E3.
Qed.

Lemma gen_labels_o_cumulative honour d n p rperc rcuts y : gen_labels_o honour d n p rperc rcuts = Ok y -> NoDup d -> separated d ->
  exists req rp, requested_percents honour n p = Some req /\ Forall2 (fun a b => qclose a b = true) rp req /\
    (qsortedb req = true -> forall m, (m < length rp)%nat ->
       count_near (lenZ d) (nth m rp 0%Q) (lenZ (filter (fun yi => yi <=? Z.of_nat m) y))).
Proof.
  intros H Hnd Hsep. destruct (gen_labels_o_spec _ _ _ _ _ _ _ H Hnd Hsep) as [req [rp [rc [Hreq [_ [_ [Hy [Hcl [Hcn Hsrt]]]]]]]]].
  exists req, rp. split; [exact Hreq|]. split; [exact Hcl|]. intros Hq m Hm. specialize (Hsrt Hq).
  assert (Hlen : length rc = length rp) by (symmetry; eapply Forall2_len; exact Hcn).
  rewrite Hy. rewrite labels_cumulative_count by (try exact Hsrt; lia).
  exact (Forall2_nth _ rp rc m 0%Q 0%Q Hcn Hm).
Qed.

(* "class proportions match the requested distribution", literally *)

Lemma div_bounds (cnt N : Z) (q k : Q) : 0 < N ->
  (inject_Z cnt - inject_Z N * q <= k)%Q -> (- k <= inject_Z cnt - inject_Z N * q)%Q ->
  (q - k / inject_Z N <= inject_Z cnt / inject_Z N)%Q /\ (inject_Z cnt / inject_Z N <= q + k / inject_Z N)%Q.
Proof.
  intros HN Hu Hl. assert (HNq : (0 < inject_Z N)%Q) by (rewrite <- (Zlt_Qlt 0); exact HN).
  split.
  - apply Qle_shift_div_l; [exact HNq|].
    setoid_replace ((q - k / inject_Z N) * inject_Z N)%Q with (inject_Z N * q - k)%Q by (field; lra). lra.
  - apply Qle_shift_div_r; [exact HNq|].
    setoid_replace ((q + k / inject_Z N) * inject_Z N)%Q with (inject_Z N * q + k)%Q by (field; lra). lra.
Qed.

Lemma labels_proportion d q : NoDup d -> d <> [] -> (0 <= q)%Q -> (q <= 1)%Q ->
  let cnt := count_le d (percentile (sort d) q) in
  (q - 1 / inject_Z (lenZ d) <= inject_Z cnt / inject_Z (lenZ d))%Q /\
  (inject_Z cnt / inject_Z (lenZ d) <= q + 1 / inject_Z (lenZ d))%Q.
Proof.
  intros Hnd Hne H0 H1 cnt. unfold cnt. rewrite (labels_prop d q Hnd Hne H0 H1).
  pose proof (lenZ_pos d Hne) as HN. destruct (vindex_near (lenZ d) q) as [Hf0 Hf1].
  apply div_bounds; [lia| |]; rewrite inject_Z_plus; change (inject_Z 1) with 1%Q; lra.
Qed.

Lemma count_near_proportion N pc cnt : 1 <= N -> (0 <= pc)%Q -> (pc <= 100)%Q -> count_near N pc cnt ->
  (pc / 100 - 2 / inject_Z N <= inject_Z cnt / inject_Z N)%Q /\ (inject_Z cnt / inject_Z N <= pc / 100 + 2 / inject_Z N)%Q.
Proof.
  intros HN H0 H1 [[Hc1 Hc2] _]. destruct (pc_unit pc H0 H1) as [Hq0 Hq1].
  destruct (vindex_near N (pc / 100)) as [Hf0 Hf1]. unfold vindex in Hf0, Hf1.
  rewrite Zle_Qle in Hc1, Hc2. rewrite inject_Z_plus in Hc2. change (inject_Z 2) with 2%Q in Hc2.
  apply div_bounds; [lia| |]; lra.
Qed.

(* progress: when does categorical noise NOT raise (so that C20_noise_cat is not vacuous) *)

Lemma res_cols_loop_not_raises (f : list Z -> list ans -> res (list Z * list ans)) (Q : list Z -> Prop) :
  (forall c st, Q c -> f c st <> Raises) -> forall cols st, Forall Q cols -> cols_loop f cols st <> Raises.
Proof.
  intros Hf. induction cols as [|c r IH]; intros st HQ; cbn [cols_loop]; [discriminate|].
  inversion HQ; subst. destruct (f c st) as [[c1 st1]| |] eqn:E1; [|exfalso; eapply Hf; eassumption|discriminate].
  destruct (cols_loop f r st1) as [[r1 st2]| |] eqn:E2; [discriminate|exfalso; eapply IH; eassumption|discriminate].
Qed.
Lemma finish_not_raises {A} (r : res (A * list ans)) : r <> Raises -> finish r <> Raises.
Proof. destruct r as [[a [|x st]]| |]; cbn [finish]; congruence. Qed.

Lemma lookup_map_seq (F : nat -> Z * list Z) len : forall s i,
  (forall j, (s <= j < s + len)%nat -> fst (F j) = Z.of_nat j) -> (s <= i < s + len)%nat ->
  lookup (Z.of_nat i) (map F (seq s len)) = Some (snd (F i)).
Proof.
  induction len as [|len IH]; intros s i HF Hi; [lia|]. cbn [seq map lookup].
  destruct (F s) as [k0 s0] eqn:E. assert (Hk : k0 = Z.of_nat s) by (specialize (HF s ltac:(lia)); rewrite E in HF; exact HF).
  subst k0. destruct (Z.eqb_spec (Z.of_nat i) (Z.of_nat s)) as [Heq|Hne].
  - assert (i = s) by lia. subst i. rewrite E. reflexivity.
  - apply IH; [intros j Hj; apply HF; lia|lia].
Qed.

Lemma pyslice_nonempty l a b : 0 <= a -> a < b -> a < lenZ l -> pyslice l a b <> [].
Proof.
  intros Ha Hab Hl. unfold pyslice. unfold lenZ in Hl.
  destruct (skipn (Z.to_nat a) l) as [|x r] eqn:E.
  - exfalso. assert (Hlen : length (skipn (Z.to_nat a) l) = (length l - Z.to_nat a)%nat) by apply skipn_length.
    rewrite E in Hlen. cbn [length] in Hlen. lia.
  - destruct (Z.to_nat (b - a)) as [|k] eqn:Ek; [lia|]. cbn [firstn]. discriminate.
Qed.
Lemma dedup_nonempty l : l <> [] -> dedup l <> [].
Proof.
  destruct l as [|x r]; [congruence|]. intros _ E. assert (H : In x (dedup (x :: r))) by (apply dedup_In; now left).
  rewrite E in H. destruct H.
Qed.

Lemma count_indicator_le1 x L : NoDup L -> zsum (map (fun v => if v =? x then 1 else 0) L) <= 1.
Proof.
  induction 1 as [|a r Hnotin Hnd IH]; cbn [map]; [cbn; lia|]. rewrite zsum_cons.
  destruct (Z.eqb_spec a x) as [->|Hne]; [|lia].
  assert (E : zsum (map (fun v => if v =? x then 1 else 0) r) = 0); [|lia].
  clear IH Hnd. induction r as [|b t IHt]; [reflexivity|]. cbn [map]. rewrite zsum_cons.
  destruct (Z.eqb_spec b x) as [->|_]; [exfalso; apply Hnotin; now left|]. rewrite IHt; [lia|]. intros H. apply Hnotin. now right.
Qed.
Lemma counts_sum_le y : forall L, NoDup L -> zsum (map (fun v => countZ v y) L) <= lenZ y.
Proof.
  induction y as [|x r IH]; intros L HL.
  - assert (E : map (fun v => countZ v []) L = map (fun _ => 0) L) by (apply map_ext; reflexivity). rewrite E.
    clear. induction L as [|a t IHt]; [cbn; lia|]. cbn [map]. rewrite zsum_cons. exact IHt.
  - assert (E : zsum (map (fun v => countZ v (x :: r)) L) = zsum (map (fun v => if v =? x then 1 else 0) L) + zsum (map (fun v => countZ v r) L)).
    { clear. induction L as [|a t IHt]; [reflexivity|]. cbn [map]. rewrite !zsum_cons, IHt, countZ_cons. lia. }
    rewrite E, lenZ_cons. pose proof (count_indicator_le1 x L HL). specialize (IH L HL). lia.
Qed.

Lemma zsum_firstn_S l : forall i, (i < length l)%nat -> zsum (firstn (S i) l) = zsum (firstn i l) + nth i l 0.
Proof.
  induction l as [|a r IH]; intros i Hi; cbn [length] in Hi; [lia|]. destruct i as [|i].
  - cbn. lia.
  - change (firstn (S (S i)) (a :: r)) with (a :: firstn (S i) r). change (firstn (S i) (a :: r)) with (a :: firstn i r).
    cbn [nth]. rewrite !zsum_cons, IH by lia. lia.
Qed.
Lemma NoDup_firstn {A} k (l : list A) : NoDup l -> NoDup (firstn k l).
Proof.
  revert l. induction k as [|k IH]; intros l H; [constructor|]. destruct l as [|a r]; [constructor|].
  inversion H; subst. cbn [firstn]. constructor; [|apply IH; assumption].
  intros Hin. apply In_firstn_In in Hin. contradiction.
Qed.

(* labels exactly 0..K-1: class j occupies the non-empty slice [off_j, off_j + c_j) of the label-sorted data,
   off_j the sum of the counts of the classes before it *)
Lemma class_slice y K j : uniq y = zrange 0 K -> (j < K)%nat ->
  let lc := map (fun v => countZ v y) (uniq y) in
  let c := countZ (Z.of_nat j) y in
  let off := zsum (firstn j lc) in
  nth j (uniq y) 0 = Z.of_nat j /\ nth j lc 0 = c /\ 1 <= c /\ 0 <= off /\ off + c <= lenZ y /\
  zsum (firstn (S j) lc) = off + c.
Proof.
  intros Hu Hj lc c off.
  assert (HK : length (uniq y) = K) by (rewrite Hu; apply zrange_length).
  assert (Hn : nth j (uniq y) 0 = Z.of_nat j) by (rewrite Hu, zrange_nth by exact Hj; lia).
  assert (Hc : nth j lc 0 = c) by (unfold lc; rewrite (nth_map_lt _ _ _ 0), Hn by lia; reflexivity).
  assert (Hs : zsum (firstn (S j) lc) = off + c) by (rewrite zsum_firstn_S, Hc by (unfold lc; rewrite map_length; lia); reflexivity).
  split; [exact Hn|]. split; [exact Hc|]. split; [|split; [|split; [|exact Hs]]].
  - assert (0 < c); [|lia]. apply countZ_pos, uniq_In. rewrite <- Hn. apply nth_In. lia.
  - unfold off, lc. rewrite firstn_map. apply zsum_map_nonneg. intros v. apply countZ_nonneg.
  - rewrite <- Hs. unfold lc. rewrite firstn_map. apply counts_sum_le, NoDup_firstn, uniq_NoDup.
Qed.

(* the per-label dictionary of a feature when the labels are exactly 0 .. K-1 *)
Lemma upl_lookup cum fs y K i :
  uniq y = zrange 0 K -> lenZ fs = lenZ y -> (i < K)%nat ->
  (cum = false -> forall lab, In lab (uniq y) -> 2 <= countZ lab y) ->
  exists s, lookup (Z.of_nat i) (upl cum fs (uniq y) (map (fun v => countZ v y) (uniq y))) = Some s /\ s <> [].
Proof.
  intros Hu Hfs Hi H2. destruct (class_slice y K i Hu Hi) as (Hn & Hc & Hpos & H0 & Hle & Hs).
  unfold upl. replace (length (uniq y)) with K by (rewrite Hu, zrange_length; reflexivity).
  rewrite (lookup_map_seq _ K 0 i) by (try lia; intros j Hj; cbn [fst]; apply (class_slice y K j Hu); lia).
  eexists. split; [reflexivity|]. cbn [snd]. rewrite Hc.
  destruct cum; [|destruct i as [|i']]; apply dedup_nonempty.
  - apply pyslice_nonempty; lia.
  - cbn [firstn] in Hle. change (zsum []) with 0 in Hle. apply pyslice_nonempty; lia.
  - (* the slice of the code before fix 501d3c0 starts at the previous count and drops its last row *)
    destruct (class_slice y K i' Hu ltac:(lia)) as (_ & Hc' & Hpos' & H0' & _ & Hs'). rewrite Hc'.
    assert (Hin : In (Z.of_nat (S i')) (uniq y)) by (rewrite <- Hn; apply nth_In; rewrite Hu, zrange_length; exact Hi).
    pose proof (H2 eq_refl _ Hin). apply pyslice_nonempty; lia.
Qed.

Lemma possible_spec lv lab x : In x (possible lv lab) -> exists i, (i < length lv)%nat /\ x = Z.of_nat i.
Proof.
  unfold possible. intros H. apply in_map_iff in H. destruct H as [i [<- Hi]]. apply filter_In in Hi. destruct Hi as [Hi _].
  apply in_seq in Hi. exists i. split; [lia|reflexivity].
Qed.
Lemma possible_nonempty K lab : (2 <= K)%nat -> possible (zrange 0 K) lab <> [].
Proof.
  intros HK E. unfold possible in E. rewrite zrange_length in E.
  assert (H : forall i, (i < K)%nat -> nth i (zrange 0 K) 0 <> lab -> False).
  { intros i Hi Hne. assert (Hin : In (Z.of_nat i) (map (fun i => Z.of_nat i) (filter (fun i => negb (nth i (zrange 0 K) 0 =? lab)) (seq 0 K)))).
    { apply in_map. apply filter_In. split; [apply in_seq; lia|]. apply negb_true_iff. apply Z.eqb_neq. exact Hne. }
    rewrite E in Hin. destruct Hin. }
  destruct (Z.eq_dec lab 0) as [->|Hn0].
  - apply (H 1%nat); [lia|]. rewrite zrange_nth by lia. lia.
  - apply (H 0%nat); [lia|]. rewrite zrange_nth by lia. lia.
Qed.
Lemma union_lookup_some keys d : (forall x, In x keys -> exists s, lookup x d = Some s) -> exists vals, union_lookup keys d = Some vals.
Proof.
  induction keys as [|k r IH]; intros H; [exists []; reflexivity|]. cbn [union_lookup].
  destruct (H k (or_introl eq_refl)) as [s Hs]. rewrite Hs.
  destruct IH as [t Ht]; [intros x Hx; apply H; now right|]. rewrite Ht. eexists. reflexivity.
Qed.

Lemma flip1_not_raises K d ysort inds ix col st :
  (2 <= K)%nat ->
  (forall i, (i < K)%nat -> exists s, lookup (Z.of_nat i) d = Some s /\ s <> []) ->
  (exists i, (i < K)%nat /\ nthZ ysort ix = Z.of_nat i) ->
  flip1 (zrange 0 K) d ysort inds ix col st <> Raises.
Proof.
  intros HK HD [i0 [Hi0 Hlab]] E. apply flip1_cases in E as C.
  assert (Hposs : forall x, In x (possible (zrange 0 K) (nthZ ysort ix)) -> exists s, lookup x d = Some s /\ s <> []).
  { intros x Hx. destruct (possible_spec _ _ _ Hx) as [i [Hi ->]]. rewrite zrange_length in Hi. auto. }
  destruct C as [C|[C|[C|(k & Hk & C)]]].
  - destruct (union_lookup_some (possible (zrange 0 K) (nthZ ysort ix)) d) as [vals Hv]; [|congruence].
    intros x Hx. destruct (Hposs x Hx) as [s [Hs _]]. eauto.
  - rewrite Hlab in C. destruct (HD i0 Hi0) as [s [Hs _]]. congruence.
  - exact (possible_nonempty K _ HK C).
  - destruct (Hposs k Hk) as [s [Hs Hne]]. destruct C; congruence.
Qed.

Lemma flips_not_raises K d ysort inds ixs : forall col st,
  (2 <= K)%nat ->
  (forall i, (i < K)%nat -> exists s, lookup (Z.of_nat i) d = Some s /\ s <> []) ->
  (forall ix, In ix ixs -> exists i, (i < K)%nat /\ nthZ ysort ix = Z.of_nat i) ->
  flips (zrange 0 K) d ysort inds ixs col st <> Raises.
Proof.
  induction ixs as [|ix r IH]; intros col st HK HD Hl; cbn [flips]; [discriminate|].
  destruct (flip1 (zrange 0 K) d ysort inds ix col st) as [[col1 st1]| |] eqn:E1.
  - apply IH; [exact HK|exact HD|intros x Hx; apply Hl; now right].
  - exfalso. eapply flip1_not_raises; [exact HK|exact HD|apply Hl; now left|exact E1].
  - discriminate.
Qed.

Lemma noise_cat_progress cum cols y p k inds st K :
  uniq y = zrange 0 K -> (2 <= K)%nat -> p_ok (lenZ y) p = true ->
  (cum = false -> forall lab, In lab (uniq y) -> 2 <= countZ lab y) ->
  noise_cat cum cols y p k inds st <> Raises.
Proof.
  intros Hu HK Hp H2. unfold noise_cat. rewrite Hp. cbn [negb].
  destruct (is_perm (lenZ y) inds && sortedb (map (nthZ y) inds)) eqn:E1; cbn [negb]; [|discriminate].
  destruct (kflip_ok (lenZ y) p k); cbn [negb]; [|discriminate].
  apply finish_not_raises. apply (res_cols_loop_not_raises _ (fun _ => True)); [|apply Forall_forall; auto].
  intros c st0 _. unfold noise_col_cat.
  destruct st0 as [|[m ixs|v|hi k'|l|m l] st1]; try discriminate.
  destruct (idx_answer_ok (lenZ y) k m ixs) eqn:Ea; [|discriminate].
  apply andb_true_iff in E1 as [E1 _]. apply is_perm_spec in E1 as (EL & Hin & _).
  apply idx_answer_ok_spec in Ea as (_ & _ & Hr & _).
  rewrite Hu at 1. apply flips_not_raises; [exact HK| |].
  - intros i Hi. apply (upl_lookup cum _ y K i); [exact Hu|rewrite lenZ_map; exact EL|exact Hi|exact H2].
  - (* the label at a drawn position is a label of y, hence one of 0..K-1 *)
    intros ix Hix. specialize (Hr ix Hix).
    assert (Hy : In (nthZ (map (nthZ y) inds) ix) (uniq y)).
    { assert (Hix' : (Z.to_nat ix < length inds)%nat) by (apply lenZ_index; rewrite EL; exact Hr).
      apply uniq_In. unfold nthZ at 1. rewrite (nth_map_lt _ _ _ 0) by exact Hix'. apply nthZ_In, Hin, nth_In, Hix'. }
    rewrite Hu in Hy. apply zrange_In in Hy. exists (Z.to_nat (nthZ (map (nthZ y) inds) ix)). split; lia.
Qed.

(* the accumulated double 100/3: 10 tie-free values, n = 3, scalar p.  The recorded percents are
   33.33333333333333 and 66.66666666666666, the virtual index 9 * 0.3333333333333333 falls just below 3, so the code's classes
   are 3/3/4 where exact arithmetic (gen_labels) gives 4/3/3.  Both are within one element of 10/3. *)
Example ex_labels_oracle :
  let d := [10; 20; 30; 40; 50; 60; 70; 80; 90; 100] in
  gen_labels_o false d 3 (PScalar (1 # 2))
    [2345624805922133 # 70368744177664; 2345624805922133 # 35184372088832]
    [5629499534213119 # 140737488355328; 4925812092436479 # 70368744177664] = Ok [0; 0; 0; 1; 1; 1; 2; 2; 2; 2] /\
  gen_labels d 3 (PScalar (1 # 2)) = Some [0; 0; 0; 0; 1; 1; 1; 2; 2; 2].
Proof. vm_compute. split; reflexivity. Qed.

(* scalar p with n > 2: the code ignores it (honour = false); the proposed repair (honour = true) gives class 0 the proportion p *)
Example ex_scalar_p_ignored :
  requested_percents false 3 (PScalar (1 # 5)) = requested_percents false 3 (PScalar (1 # 2)) /\
  (match requested_percents true 3 (PScalar (1 # 5)) with Some [a; b] => Qeq_bool a 20 && Qeq_bool b 60 | _ => false end) = true.
Proof. vm_compute. split; reflexivity. Qed.

Example ex_noise_progress_nonvacuous :
  uniq [0; 1; 0; 1; 2; 2] = zrange 0 3 /\ p_ok 6 (1 # 2) = true /\ (forall lab, In lab (uniq [0; 1; 0; 1; 2; 2]) -> 2 <= countZ lab [0; 1; 0; 1; 2; 2]).
Proof. split; [reflexivity|]. split; [reflexivity|]. intros lab H. cbn in H. destruct H as [<-|[<-|[<-|[]]]]; vm_compute; discriminate. Qed.

(* fix 501d3c0 (cumulative per-label offsets).  The slices of the code before the fix (previous count instead of the cumulative offset, last
   row dropped) leave a one-member class with an empty value set: the recorded run of the old code raises, the repaired
   slices return a noised column within the clauses (1 <= floor(4/4) change, a value of the feature). *)
Lemma noise_slices_prefix_refuted :
  noise_cat false [[0; 4; 2; 1]] [0; 0; 1; 0] (1 # 4) 1 [0; 1; 3; 2] [AIdx 4 [1]; AInt 1 0] = Raises /\
  noise_cat true [[0; 4; 2; 1]] [0; 0; 1; 0] (1 # 4) 1 [0; 1; 3; 2] [AIdx 4 [1]; AVal 2] = Ok [[0; 2; 2; 1]].
Proof. vm_compute. split; reflexivity. Qed.

Lemma labels_valid_mono d req y : labels_valid d req y = true ->
  length y = length d /\
  forall a b, In a (combine d y) -> In b (combine d y) -> fst a <= fst b -> snd a <= snd b.
Proof.
  unfold labels_valid. rewrite !andb_true_iff. intros [[[HL HM] _] _]. split; [apply Nat.eqb_eq; exact HL|].
  intros a b Ha Hb Hab. rewrite forallb_forall in HM. specialize (HM a Ha). rewrite forallb_forall in HM. specialize (HM b Hb).
  apply orb_true_iff in HM. destruct HM as [HM|HM]; [apply negb_true_iff in HM; lia|lia].
Qed.
