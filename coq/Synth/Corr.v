(* C20, over R: Pearson correlation of finite vectors, and generate_correlated's construction
   (centre, project, normalise, add cot(acos r) times the source direction) has correlation exactly r with the source. *)
From Coq Require Import Reals List Lra.
From Outrank Require Import Common.RSum.
Import ListNotations.
Open Scope R_scope.

Section Corr.
  Variable n : nat.
  Hypothesis Hn : (0 < n)%nat.
  Definition vec := nat -> R.
  Definition idx := seq 0 n.
  Definition dot (u v : vec) : R := rsum (fun i => u i * v i) idx.
  Definition vsum (u : vec) : R := rsum u idx.
  Definition mean (u : vec) : R := vsum u / INR n.
  Definition centre (u : vec) : vec := fun i => u i - mean u.
  Definition pearson (u v : vec) : R :=
    dot (centre u) (centre v) / sqrt (dot (centre u) (centre u) * dot (centre v) (centre v)).

  Lemma n_pos : 0 < INR n. Proof. apply lt_0_INR. exact Hn. Qed.

  Lemma vsum_ext (u u' : vec) : (forall i, In i idx -> u i = u' i) -> vsum u = vsum u'.
  Proof. intros H. unfold vsum. apply rsum_ext_in. exact H. Qed.
  Lemma dot_ext (u u' v v' : vec) :
    (forall i, In i idx -> u i = u' i) -> (forall i, In i idx -> v i = v' i) -> dot u v = dot u' v'.
  Proof. intros H1 H2. unfold dot. apply rsum_ext_in. intros i Hi. rewrite (H1 i Hi), (H2 i Hi). reflexivity. Qed.
  Lemma centre_ext (u u' : vec) : (forall i, In i idx -> u i = u' i) -> forall i, In i idx -> centre u i = centre u' i.
  Proof. intros H i Hi. unfold centre, mean. rewrite (vsum_ext u u' H), (H i Hi). reflexivity. Qed.
  Lemma pearson_ext (f f' g g' : vec) :
    (forall i, In i idx -> f i = f' i) -> (forall i, In i idx -> g i = g' i) -> pearson f g = pearson f' g'.
  Proof.
    intros Hf Hg. unfold pearson.
    rewrite (dot_ext (centre f) (centre f') (centre g) (centre g')) by (apply centre_ext; assumption).
    rewrite (dot_ext (centre f) (centre f') (centre f) (centre f')) by (apply centre_ext; assumption).
    rewrite (dot_ext (centre g) (centre g') (centre g) (centre g')) by (apply centre_ext; assumption).
    reflexivity.
  Qed.

  Lemma dot_lin_l a b (u v w : vec) : dot (fun i => a * u i + b * v i) w = a * dot u w + b * dot v w.
  Proof.
    unfold dot. rewrite <- !rsum_scal, <- rsum_plus. apply rsum_ext_in. intros i _. lra.
  Qed.
  Lemma dot_comm u v : dot u v = dot v u.
  Proof. unfold dot. apply rsum_ext_in. intros i _. lra. Qed.
  Lemma dot_scal_l k (u v : vec) : dot (fun i => k * u i) v = k * dot u v.
  Proof. unfold dot. rewrite <- rsum_scal. apply rsum_ext_in. intros; lra. Qed.
  Lemma dot_scal_r k (u v : vec) : dot u (fun i => k * v i) = k * dot u v.
  Proof. rewrite dot_comm, dot_scal_l, dot_comm. reflexivity. Qed.
  Lemma dot_sub_r (u v w : vec) : dot u (fun i => v i - w i) = dot u v - dot u w.
  Proof. unfold dot. rewrite <- rsum_minus. apply rsum_ext_in. intros; lra. Qed.
  Lemma dot_div_l k (u v : vec) : dot (fun i => u i / k) v = dot u v / k.
  Proof. unfold Rdiv. rewrite (Rmult_comm (dot u v)), <- dot_scal_l. apply dot_ext; intros; lra. Qed.
  Lemma dot_div_r k (u v : vec) : dot u (fun i => v i / k) = dot u v / k.
  Proof. rewrite dot_comm, dot_div_l, dot_comm. reflexivity. Qed.
  Lemma vsum_lin a b (u v : vec) : vsum (fun i => a * u i + b * v i) = a * vsum u + b * vsum v.
  Proof. unfold vsum. rewrite <- !rsum_scal, <- rsum_plus. reflexivity. Qed.
  Lemma vsum_const k : vsum (fun _ => k) = INR n * k.
  Proof. unfold vsum, idx. rewrite rsum_const, seq_length. reflexivity. Qed.
  Lemma vsum_scal k (u : vec) : vsum (fun i => k * u i) = k * vsum u.
  Proof. unfold vsum. rewrite <- rsum_scal. reflexivity. Qed.
  Lemma vsum_sub (u v : vec) : vsum (fun i => u i - v i) = vsum u - vsum v.
  Proof. unfold vsum. rewrite <- rsum_minus. reflexivity. Qed.
  Lemma vsum_div k (u : vec) : vsum (fun i => u i / k) = vsum u / k.
  Proof. unfold Rdiv. rewrite (Rmult_comm (vsum u)), <- vsum_scal. apply vsum_ext. intros; lra. Qed.
  Lemma vsum_centre (u : vec) : vsum (centre u) = 0.
  Proof. unfold centre. rewrite vsum_sub, vsum_const. unfold mean. field. pose proof n_pos. lra. Qed.

  Variables u v : vec.
  Hypothesis Hu0 : vsum u = 0.
  Hypothesis Hv0 : vsum v = 0.
  Hypothesis Huu : dot u u = 1.
  Hypothesis Hvv : dot v v = 1.
  Hypothesis Huv : dot u v = 0.

  (* the generated feature and the (affinely rescaled) source *)
  Variables c a b : R.
  Hypothesis Ha : 0 < a.
  Definition w : vec := fun i => 1 * v i + c * u i.
  Definition t : vec := fun i => a * u i + b * 1.

  Lemma mean_w : mean w = 0.
  Proof. unfold mean, w. rewrite vsum_lin, Hu0, Hv0. field. pose proof n_pos; lra. Qed.
  Lemma mean_t : mean t = b.
  Proof.
    unfold mean, t. rewrite (vsum_lin a b u (fun _ => 1)), Hu0, vsum_const. field. pose proof n_pos; lra.
  Qed.
  Lemma centre_w_ext : forall f, dot (centre w) f = dot w f.
  Proof. intros f. unfold dot. apply rsum_ext_in. intros i _. unfold centre. rewrite mean_w. lra. Qed.

  Theorem pearson_wt : pearson w t = c / sqrt (1 + c * c).
  Proof.
    unfold pearson.
    (* both vectors have mean-free parts w and a u; everything reduces to <w,u> = c and <w,w> = 1 + c^2 *)
    assert (Ecw : forall i, In i idx -> centre w i = w i) by (intros i _; unfold centre; rewrite mean_w; lra).
    assert (Ect : forall i, In i idx -> centre t i = a * u i) by (intros i _; unfold centre; rewrite mean_t; unfold t; lra).
    assert (Dwu : dot w u = c) by (unfold w; rewrite dot_lin_l, (dot_comm v u), Huv, Huu; lra).
    assert (Dww : dot w w = 1 + c * c).
    { unfold w at 1. rewrite dot_lin_l, (dot_comm v w), (dot_comm u w), Dwu. unfold w. rewrite dot_lin_l, Hvv, Huv. lra. }
    rewrite (dot_ext _ w _ (fun i => a * u i) Ecw Ect), (dot_ext _ w _ w Ecw Ecw),
      (dot_ext _ (fun i => a * u i) _ (fun i => a * u i) Ect Ect).
    rewrite !dot_scal_r, dot_scal_l, Dwu, Dww, Huu. replace (a * (a * 1)) with (a * a) by ring.
    assert (Hpos : 0 < 1 + c * c) by nra.
    rewrite sqrt_mult by nra. rewrite sqrt_square by lra.
    assert (0 < sqrt (1 + c * c)) by (apply sqrt_lt_R0; exact Hpos).
    field. split; lra.
  Qed.
End Corr.

Lemma cot_acos r : -1 < r < 1 -> cos (acos r) / sin (acos r) = r / sqrt (1 - r * r).
Proof.
  intros H. rewrite cos_acos, sin_acos by lra. unfold Rsqr. reflexivity.
Qed.

(* with c = cot (acos r) the correlation is exactly r *)
Lemma corr_value r : -1 < r < 1 -> let c := r / sqrt (1 - r * r) in c / sqrt (1 + c * c) = r.
Proof.
  intros H c. assert (Hp : 0 < 1 - r * r) by nra.
  assert (Hs : 0 < sqrt (1 - r * r)) by (apply sqrt_lt_R0; exact Hp).
  assert (E : 1 + c * c = / (1 - r * r)).
  { replace (c * c) with (r * r / (sqrt (1 - r * r) * sqrt (1 - r * r))) by (unfold c; field; lra).
    rewrite sqrt_sqrt by lra. field. lra. }
  rewrite E, sqrt_inv. unfold c. field. lra.
Qed.

(* C20_corr: the algebra of the orthogonal-projection construction *)
Theorem corr_cot n (Hn : (0 < n)%nat) (u v : vec) r a b :
  vsum n u = 0 -> vsum n v = 0 -> dot n u u = 1 -> dot n v v = 1 -> dot n u v = 0 ->
  -1 < r < 1 -> 0 < a ->
  pearson n (fun i => v i + cos (acos r) / sin (acos r) * u i) (fun i => a * u i + b) = r.
Proof.
  intros Hu0 Hv0 Huu Hvv Huv Hr Ha.
  pose proof (pearson_wt n Hn u v Hu0 Hv0 Huu Hvv Huv (r / sqrt (1 - r * r)) a b Ha) as H.
  rewrite (corr_value r Hr) in H. rewrite (cot_acos r Hr).
  etransitivity; [|exact H]. apply pearson_ext; intros i _; unfold w, t; lra.
Qed.

(* the code writes 1 / tan(theta); for r <> 0 this is the cotangent *)
Lemma inv_tan_cot x : cos x <> 0 -> sin x <> 0 -> 1 / tan x = cos x / sin x.
Proof. intros Hc Hs. unfold tan. field. split; assumption. Qed.

Theorem corr_tan n (Hn : (0 < n)%nat) (u v : vec) r a b :
  vsum n u = 0 -> vsum n v = 0 -> dot n u u = 1 -> dot n v v = 1 -> dot n u v = 0 ->
  -1 < r < 1 -> r <> 0 -> 0 < a ->
  pearson n (fun i => v i + 1 / tan (acos r) * u i) (fun i => a * u i + b) = r.
Proof.
  intros Hu0 Hv0 Huu Hvv Huv Hr Hr0 Ha.
  assert (Hc : cos (acos r) <> 0) by (rewrite cos_acos by lra; exact Hr0).
  assert (Hs : sin (acos r) <> 0).
  { rewrite sin_acos by lra. assert (0 < sqrt (1 - Rsqr r)); [|lra]. apply sqrt_lt_R0. unfold Rsqr. nra. }
  rewrite (inv_tan_cot _ Hc Hs). apply corr_cot; assumption.
Qed.

(* The construction of generate_correlated over R, step by step as the code performs it:
     t_standard = (t - mean t) / kappa                  kappa = std(t) + 1e-10 > 0 (any positive number)
     z          = the (standardised) random vector      (any vector)
     M_centred  = [centre t_standard, centre z]
     Q          = first column / its norm               (QR of one column; the sign of Q cancels in Q Q^T)
     proj       = (I - Q Q^T) M_centred[:,1]
     Y          = columns of [M_centred[:,0], proj] scaled to unit norm
     corr       = Y[:,1] + cot(acos r) * Y[:,0]
   Hypotheses: the source is not constant and z is not an affine function of it (the two norms are non-zero). *)
Section Construct.
  Variable n : nat.
  Hypothesis Hn : (0 < n)%nat.
  Variables src z : vec.
  Variables kappa r : R.
  Hypothesis Hk : 0 < kappa.
  Hypothesis Hr : -1 < r < 1.

  Definition nrm (x : vec) : R := sqrt (dot n x x).
  Definition t_standard : vec := fun i => (src i - mean n src) / kappa.
  Definition m0 : vec := centre n t_standard.
  Definition m1 : vec := centre n z.
  Definition y0 : vec := fun i => m0 i / nrm m0.
  Definition proj : vec := fun i => m1 i - dot n y0 m1 * y0 i.
  Definition y1 : vec := fun i => proj i / nrm proj.
  Definition corr_feature : vec := fun i => y1 i + cos (acos r) / sin (acos r) * y0 i.

  Hypothesis Hsrc : 0 < dot n m0 m0.
  Hypothesis Hz : 0 < dot n proj proj.

  Lemma nrm_pos (x : vec) : 0 < dot n x x -> 0 < nrm x.
  Proof. apply sqrt_lt_R0. Qed.
  Lemma nrm_sq (x : vec) : 0 < dot n x x -> nrm x * nrm x = dot n x x.
  Proof. intros H. unfold nrm. apply sqrt_sqrt. lra. Qed.
  Lemma unit_norm (x : vec) : 0 < dot n x x -> dot n (fun i => x i / nrm x) (fun i => x i / nrm x) = 1.
  Proof. intros H. pose proof (nrm_pos x H). rewrite dot_div_l, dot_div_r, <- (nrm_sq x H). field. lra. Qed.

  Lemma y0_sum : vsum n y0 = 0.
  Proof. unfold y0, m0. rewrite vsum_div, (vsum_centre n Hn). unfold Rdiv. ring. Qed.
  Lemma y0_unit : dot n y0 y0 = 1.
  Proof. exact (unit_norm m0 Hsrc). Qed.
  Lemma proj_sum : vsum n proj = 0.
  Proof. unfold proj, m1. rewrite vsum_sub, vsum_scal, y0_sum, (vsum_centre n Hn). lra. Qed.
  Lemma y0_proj : dot n y0 proj = 0.
  Proof. unfold proj. rewrite dot_sub_r, dot_scal_r, y0_unit. lra. Qed.
  Lemma y1_sum : vsum n y1 = 0.
  Proof. unfold y1. rewrite vsum_div, proj_sum. unfold Rdiv. ring. Qed.
  Lemma y1_unit : dot n y1 y1 = 1.
  Proof. exact (unit_norm proj Hz). Qed.
  Lemma y0_y1 : dot n y0 y1 = 0.
  Proof. unfold y1. rewrite dot_div_r, y0_proj. unfold Rdiv. ring. Qed.

  (* the source is a positive affine image of Y[:,0]: the regulariser and both normalisations only rescale *)
  Lemma src_affine i : src i = (kappa * nrm m0) * y0 i + mean n src.
  Proof.
    assert (Hm : mean n t_standard = 0).
    { unfold mean, t_standard. rewrite vsum_div. change (fun i0 => src i0 - mean n src) with (centre n src).
      rewrite (vsum_centre n Hn). unfold Rdiv. ring. }
    assert (E : m0 i = (src i - mean n src) / kappa) by (unfold m0, centre; rewrite Hm; unfold t_standard; lra).
    pose proof (nrm_pos m0 Hsrc) as HN. unfold y0. rewrite E. set (N := nrm m0) in *. field. split; lra.
  Qed.

  Theorem construction : pearson n corr_feature src = r.
  Proof.
    rewrite (pearson_ext n corr_feature (fun i => y1 i + cos (acos r) / sin (acos r) * y0 i)
                         src (fun i => (kappa * nrm m0) * y0 i + mean n src)).
    - apply corr_cot; try assumption.
      + exact y0_sum.
      + exact y1_sum.
      + exact y0_unit.
      + exact y1_unit.
      + exact y0_y1.
      + pose proof (nrm_pos m0 Hsrc). nra.
    - intros i _. reflexivity.
    - intros i _. apply src_affine.
  Qed.
End Construct.

(* non-vacuity of the hypotheses of corr_cot: two centred orthonormal vectors of length 4 *)
Example corr_hyp_sat :
  let u : vec := fun i => match i with 0%nat | 1%nat => 1 / 2 | _ => - (1 / 2) end in
  let v : vec := fun i => match i with 0%nat | 2%nat => 1 / 2 | _ => - (1 / 2) end in
  vsum 4 u = 0 /\ vsum 4 v = 0 /\ dot 4 u u = 1 /\ dot 4 v v = 1 /\ dot 4 u v = 0.
Proof. unfold vsum, dot, idx. cbn [seq rsum fold_right]. repeat split; lra. Qed.
