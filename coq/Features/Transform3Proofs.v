From Coq Require Import String.
From Coq Require Import List QArith Qreals Qround Reals Lia Lra DecimalN.
From Outrank Require Import Features.Transform Features.Transform3 Features.TransformProofs.
Import ListNotations.
Local Close Scope R_scope.
Local Close Scope Q_scope.

(* statistics are invariant under a map that respects the equality on the values present; [P] delimits those values
   (the domain on which a text rendering is assumed faithful, or everything) *)

Section Transfer.
  Context {A B : Type} (f : A -> B) (eqA : A -> A -> bool) (eqB : B -> B -> bool) (P : A -> Prop).
  Hypothesis Heq : forall a b, P a -> P b -> eqB (f a) (f b) = eqA a b.

  Lemma gcount_map : forall a l, P a -> Forall P l -> gcount eqB (f a) (map f l) = gcount eqA a l.
  Proof.
    induction l as [|x l IH]; intros Pa Pl; cbn [gcount map]; [reflexivity|].
    inversion Pl; subst. rewrite Heq by assumption. rewrite IH by assumption. reflexivity.
  Qed.

  Lemma gmem_map : forall a l, P a -> Forall P l -> gmem eqB (f a) (map f l) = gmem eqA a l.
  Proof.
    induction l as [|x l IH]; intros Pa Pl; cbn [gmem map]; [reflexivity|].
    inversion Pl; subst. rewrite Heq by assumption. rewrite IH by assumption. reflexivity.
  Qed.

  Lemma gdedup_map : forall l, Forall P l -> gdedup eqB (map f l) = map f (gdedup eqA l).
  Proof.
    induction l as [|x l IH]; intros Pl; cbn [gdedup map]; [reflexivity|].
    inversion Pl; subst. rewrite gmem_map by assumption.
    destruct (gmem eqA x l); cbn [map]; rewrite IH by assumption; reflexivity.
  Qed.

  Lemma gdistinct_map : forall l, Forall P l -> gdistinct eqB (map f l) = gdistinct eqA l.
  Proof. intros. unfold gdistinct. rewrite gdedup_map by assumption. apply map_length. Qed.

  Lemma gmaxcount_map : forall l, Forall P l -> gmaxcount eqB (map f l) = gmaxcount eqA l.
  Proof.
    intros l Pl. unfold gmaxcount.
    assert (G : forall l1, Forall P l1 ->
              fold_right (fun s m => Nat.max (gcount eqB s (map f l)) m) 0 (map f l1)
              = fold_right (fun s m => Nat.max (gcount eqA s l) m) 0 l1).
    { induction l1 as [|x l1 IH]; intros P1; cbn [fold_right map]; [reflexivity|].
      inversion P1; subst. rewrite gcount_map by assumption. rewrite IH by assumption. reflexivity. }
    apply G. exact Pl.
  Qed.

  Lemma gnancount_map : forall (nA : A -> bool) (nB : B -> bool) l,
    (forall a, P a -> nB (f a) = nA a) -> Forall P l -> gnancount nB (map f l) = gnancount nA l.
  Proof.
    intros nA nB l Hn. unfold gnancount. induction l as [|x l IH]; intros Pl; cbn [filter map]; [reflexivity|].
    inversion Pl; subst. rewrite Hn by assumption. destruct (nA x); cbn [length]; rewrite IH by assumption; reflexivity.
  Qed.

  Lemma keep_by_map : forall (nA : A -> bool) (nB : B -> bool) l,
    (forall a, P a -> nB (f a) = nA a) -> Forall P l -> keep_by eqB nB (map f l) = keep_by eqA nA l.
  Proof.
    intros. unfold keep_by.
    rewrite gdistinct_map, gmaxcount_map, (gnancount_map nA nB), map_length by assumption. reflexivity.
  Qed.
End Transfer.

(* count, mem, dedup, distinct and maxcount of Transform.v are the generic statistics at str_eqb by conversion;
   only the nan count is written differently *)
Lemma count_nancount : forall s l, count s l = gnancount (str_eqb s) l.
Proof.
  unfold gnancount. induction l as [|x l IH]; cbn [count filter]; [reflexivity|].
  destruct (str_eqb s x); cbn [length]; rewrite IH; reflexivity.
Qed.

Lemma keep_spec_keep_by : forall l, keep_spec l = keep_by str_eqb (str_eqb nan_str) l.
Proof.
  intros. unfold keep_spec, keep_by. rewrite count_nancount. reflexivity.
Qed.

(* two lists related element by element, written as an equation between their images *)
Lemma map_eq_transfer : forall A B C D (f : A -> C) (g : B -> C) (f' : A -> D) (g' : B -> D),
  (forall a b, f a = g b -> f' a = g' b) -> forall l t, map f l = map g t -> map f' l = map g' t.
Proof.
  intros A B C D f g f' g' H. induction l as [|a l IH]; intros [|b t] E; cbn [map] in *; try discriminate; [reflexivity|].
  injection E as E1 E2. rewrite (H a b E1), (IH t E2). reflexivity.
Qed.

Lemma map_eq_combine : forall A B C (f : A -> C) (g : B -> C) l t, map f l = map g t ->
  (forall a b, In (a, b) (combine l t) -> f a = g b) /\ (forall a, In a l -> exists b, In (a, b) (combine l t)).
Proof.
  intros A B C f g. induction l as [|x l IH]; intros [|y t] E; cbn [map combine In] in *; try discriminate.
  - split; [intros a b [] | intros a []].
  - injection E as E1 E2. destruct (IH t E2) as [I1 I2]. split.
    + intros a b [P|P]; [injection P as <- <-; exact E1 | exact (I1 a b P)].
    + intros a [<-|P]; [exists y; left; reflexivity|]. destruct (I2 a P) as [b Hb]. exists b. right. exact Hb.
Qed.

Lemma all_some_spec : forall A (l : list (option A)) t,
  all_some l = Some t <-> l = map Some t.
Proof.
  induction l as [|[a|] l IH]; intros t; cbn [all_some].
  - split; [intros H; injection H as <-; reflexivity | destruct t; [reflexivity | discriminate]].
  - destruct (all_some l) as [t'|] eqn:E.
    + split.
      * intros H. injection H as <-. cbn [map]. f_equal. apply IH. reflexivity.
      * destruct t as [|b t]; [discriminate|]. cbn [map]. intros H. injection H as -> H.
        apply IH in H. injection H as ->. reflexivity.
    + split; [discriminate|]. destruct t as [|b t]; [discriminate|]. cbn [map]. intros H. injection H as -> H.
      apply IH in H. discriminate.
  - split; [discriminate|]. destruct t; discriminate.
Qed.

Lemma all_some_map : forall A B (g : A -> option B) l t,
  all_some (map g l) = Some t -> length t = length l /\ forall i a, nth_error l i = Some a -> option_map Some (g a) = option_map Some (nth_error t i).
Proof.
  intros A B g l t H. apply all_some_spec in H.
  split.
  - rewrite <- (map_length g l), H, map_length. reflexivity.
  - intros i a Hi. assert (E : nth_error (map g l) i = Some (g a)) by (rewrite nth_error_map, Hi; reflexivity).
    rewrite H, nth_error_map in E. destruct (nth_error t i); cbn in E; [|discriminate].
    injection E as <-. reflexivity.
Qed.

Section Composition.
  Variable render : gval R -> str.

  (* the property's sentence, as one statement: for the raw column [cells] of the feature [col] and the selected
     transformers [sel] (names with their formulas), a column named col ++ k is emitted iff k is a selected transformer
     with formula e and the text of e applied to the numeric parse of the cells has more than one distinct value, its
     most frequent value covers less than 80 % of the rows and less than 75 % of it is the text of nan *)
  Lemma emitted_iff : forall (sel : list (str * expr)) col cells out,
    construct render (fun e => e) sel col cells = Some out ->
    exists xs, parse_column OpsR cells = Some xs /\
    forall n, In n out <->
      exists k e txt, In (k, e) sel /\ n = col ++ k
        /\ rendered_column render e xs = Some txt
        /\ (1 < distinct txt /\ 5 * maxcount txt < 4 * length txt /\ 4 * count nan_str txt < 3 * length txt)%nat.
  Proof.
    intros sel col cells out H. unfold construct in H.
    destruct (parse_column OpsR cells) as [xs|]; [|discriminate]. exists xs. split; [reflexivity|].
    destruct (all_some (map (fun kv => rendered_column render (snd kv) xs) sel)) as [rend|] eqn:E; [|discriminate].
    injection H as <-. apply all_some_spec, map_eq_combine in E. destruct E as [E1 E2].
    (* E1: the text paired with a transformer is its rendered column; E2: every transformer is paired *)
    intros n. rewrite emitted_In. split.
    - intros [k [e [l [Hin [Hk ->]]]]]. exists k, e, l.
      split; [eapply in_combine_l; exact Hin|]. split; [reflexivity|]. split; [exact (E1 _ _ Hin) | exact Hk].
    - intros [k [e [txt [Hin [-> [Ht Hk]]]]]]. destruct (E2 _ Hin) as [l Hl].
      pose proof (E1 _ _ Hl) as El. cbn [snd] in El. rewrite Ht in El. injection El as ->.
      exists k, e, l. auto.
  Qed.

  (* ... and in terms of the value classes instead of the text, when [render] is faithful on the values that occur:
     two values have the same text iff they are the same class (same finite number with the same zero sign, nan, the same
     infinity), and exactly nan is rendered as "nan".  [D] is the set of values for which this is assumed of numpy's
     astype(str) (it cannot hold on all reals: there are only countably many strings; for doubles it is the shortest
     round-trip repr). *)
  Variable D : gval R -> Prop.
  Hypothesis render_faithful : forall a b, D a -> D b -> str_eqb (render a) (render b) = gsame OpsR a b.
  Hypothesis render_nan : forall a, D a -> str_eqb nan_str (render a) = gisnan a.

  Lemma keep_text_iff_classes : forall vs, Forall D vs ->
    keep_spec (map render vs) = keep_by (gsame OpsR) (@gisnan R) vs.
  Proof.
    intros vs Hd. rewrite keep_spec_keep_by.
    apply (keep_by_map render (gsame OpsR) str_eqb D render_faithful (@gisnan R) (str_eqb nan_str)); assumption.
  Qed.
End Composition.

(* [obind] under a map of the values: the steps of an induction over formulas *)
Lemma obind_morph {A A' B B'} (ma : A -> A') (mb : B -> B') (a : option A) (a' : option A')
    (f : A -> option B) (f' : A' -> option B') v :
  (forall u, a = Some u -> a' = Some (ma u)) ->
  (forall u w, f u = Some w -> f' (ma u) = Some (mb w)) ->
  obind a f = Some v -> obind a' f' = Some (mb v).
Proof.
  intros Ha Hf H. destruct a as [u|]; [|discriminate].
  rewrite (Ha u eq_refl). cbn [obind] in *. apply Hf. exact H.
Qed.

Lemma obind_morph1 {A A' B B'} (ma : A -> A') (mb : B -> B') (a : option A) (a' : option A')
    (h : A -> B) (h' : A' -> B') v :
  (forall u, a = Some u -> a' = Some (ma u)) ->
  (forall u, mb (h u) = h' (ma u)) ->
  obind a (fun u => Some (h u)) = Some v -> obind a' (fun u => Some (h' u)) = Some (mb v).
Proof.
  intros Ha Hh. apply (obind_morph ma mb); [exact Ha|].
  intros u w E. injection E as <-. rewrite Hh. reflexivity.
Qed.

Lemma obind_morph2 {A A' B B'} (ma : A -> A') (mb : B -> B') (a b : option A) (a' b' : option A')
    (h : A -> A -> B) (h' : A' -> A' -> B') v :
  (forall u, a = Some u -> a' = Some (ma u)) ->
  (forall u, b = Some u -> b' = Some (ma u)) ->
  (forall u w, mb (h u w) = h' (ma u) (ma w)) ->
  obind a (fun u => obind b (fun w => Some (h u w))) = Some v ->
  obind a' (fun u => obind b' (fun w => Some (h' u w))) = Some (mb v).
Proof.
  intros Ha Hb Hh. apply (obind_morph ma mb); [exact Ha|].
  intros u r. apply (obind_morph1 ma mb); [exact Hb | apply Hh].
Qed.

Section Morphism.
  Context {T1 T2 : Type} (O1 : Ops T1) (O2 : Ops T2) (phi : T1 -> T2).
  Hypothesis h_ofQ : forall q, phi (o_ofQ O1 q) = o_ofQ O2 q.
  Hypothesis h_add : forall a b, phi (o_add O1 a b) = o_add O2 (phi a) (phi b).
  Hypothesis h_mul : forall a b, phi (o_mul O1 a b) = o_mul O2 (phi a) (phi b).
  Hypothesis h_opp : forall a, phi (o_opp O1 a) = o_opp O2 (phi a).
  Hypothesis h_div : forall a b, is_zero O1 b = false -> phi (o_div O1 a b) = o_div O2 (phi a) (phi b).
  Hypothesis h_ltb : forall a b, o_ltb O2 (phi a) (phi b) = o_ltb O1 a b.
  Hypothesis h_eqb : forall a b, o_eqb O2 (phi a) (phi b) = o_eqb O1 a b.
  Hypothesis h_sqrt : forall a r, is_neg O1 a = false -> o_sqrt O1 a = Some r -> o_sqrt O2 (phi a) = Some (phi r).
  Hypothesis h_ln : forall a r, is_neg O1 a = false -> is_zero O1 a = false -> o_ln O1 a = Some r ->
                                o_ln O2 (phi a) = Some (phi r).
  Hypothesis h_rnd : forall d a, phi (o_rnd O1 d a) = o_rnd O2 d (phi a).

  Notation gm := (gmap phi).

  Lemma m_is_zero : forall v, is_zero O2 (phi v) = is_zero O1 v.
  Proof. intros. unfold is_zero, zeroT. rewrite <- h_ofQ. apply h_eqb. Qed.
  Lemma m_is_neg : forall v, is_neg O2 (phi v) = is_neg O1 v.
  Proof. intros. unfold is_neg, zeroT. rewrite <- h_ofQ. apply h_ltb. Qed.
  Lemma m_fin : forall v z, gm (fin O1 v z) = fin O2 (phi v) z.
  Proof. intros. unfold fin. cbn [gmap]. rewrite m_is_zero. reflexivity. Qed.
  Lemma m_sgn : forall x, sgn O2 (gm x) = sgn O1 x.
  Proof. intros [v z| |n]; cbn [sgn gmap]; [rewrite m_is_neg|..]; reflexivity. Qed.
  Lemma m_gzero : forall x, gzero O2 (gm x) = gzero O1 x.
  Proof. intros [v z| |n]; cbn [gzero gmap]; [rewrite m_is_zero|..]; reflexivity. Qed.
  Lemma m_gisnan : forall x, gisnan (gm x) = gisnan x.
  Proof. intros [v z| |n]; reflexivity. Qed.

  Lemma m_gneg : forall x, gm (gneg O1 x) = gneg O2 (gm x).
  Proof. intros [v z| |n]; cbn [gneg gmap]; [rewrite m_fin, h_opp|..]; reflexivity. Qed.

  Lemma m_gadd : forall x y, gm (gadd O1 x y) = gadd O2 (gm x) (gm y).
  Proof.
    intros [a za| |na] [b zb| |nb]; cbn [gadd gmap]; try reflexivity.
    - rewrite m_fin, h_add. reflexivity.
    - destruct (Bool.eqb na nb); reflexivity.
  Qed.

  Lemma m_gsub : forall x y, gm (gsub O1 x y) = gsub O2 (gm x) (gm y).
  Proof. intros. unfold gsub. rewrite m_gadd, m_gneg. reflexivity. Qed.

  Lemma m_gmul : forall x y, gm (gmul O1 x y) = gmul O2 (gm x) (gm y).
  Proof.
    intros x y.
    pose proof (m_sgn x) as Sx. pose proof (m_sgn y) as Sy.
    pose proof (m_gzero x) as Zx. pose proof (m_gzero y) as Zy.
    destruct x as [a za| |na], y as [b zb| |nb]; cbn [gmul gmap] in *; try reflexivity.
    1: { rewrite m_fin, h_mul, Sx, Sy. reflexivity. }
    all: rewrite ?Zx, ?Zy, ?Sx, ?Sy;
      match goal with |- context [if ?c then _ else _] => destruct c end; reflexivity.
  Qed.

  Lemma m_gdiv : forall x y, gm (gdiv O1 x y) = gdiv O2 (gm x) (gm y).
  Proof.
    intros x y.
    pose proof (m_sgn x) as Sx. pose proof (m_sgn y) as Sy.
    destruct x as [a za| |na], y as [b zb| |nb]; cbn [gdiv gmap] in *; try reflexivity.
    - rewrite !m_is_zero. destruct (is_zero O1 b) eqn:Zb.
      + destruct (is_zero O1 a); [reflexivity|]. cbn [gmap]. rewrite Sx, Sy. reflexivity.
      + rewrite m_fin, h_div by exact Zb. rewrite Sx, Sy. reflexivity.
    - rewrite m_fin. unfold zeroT. rewrite h_ofQ, Sx. reflexivity.
    - rewrite Sy. reflexivity.
  Qed.

  Lemma m_gabs : forall x, gm (gabs O1 x) = gabs O2 (gm x).
  Proof.
    intros [v z| |n]; cbn [gabs gmap]; try reflexivity.
    rewrite m_fin, m_is_neg. destruct (is_neg O1 v); [rewrite h_opp|]; reflexivity.
  Qed.

  Lemma m_gsqrt : forall x r, gsqrt O1 x = Some r -> gsqrt O2 (gm x) = Some (gm r).
  Proof.
    intros [v z| |n] r; cbn [gsqrt gmap]; intros H.
    - rewrite m_is_neg, m_is_zero. destruct (is_neg O1 v) eqn:Nv; [injection H as <-; reflexivity|].
      destruct (is_zero O1 v); [injection H as <-; reflexivity|].
      destruct (o_sqrt O1 v) as [s|] eqn:E; [|discriminate]. injection H as <-.
      rewrite (h_sqrt v s Nv E), m_fin. reflexivity.
    - injection H as <-. reflexivity.
    - injection H as <-. destruct n; reflexivity.
  Qed.

  Lemma m_glog : forall x r, glog O1 x = Some r -> glog O2 (gm x) = Some (gm r).
  Proof.
    intros [v z| |n] r; cbn [glog gmap]; intros H.
    - rewrite m_is_neg, m_is_zero. destruct (is_neg O1 v) eqn:Nv; [injection H as <-; reflexivity|].
      destruct (is_zero O1 v) eqn:Zv; [injection H as <-; reflexivity|].
      destruct (o_ln O1 v) as [s|] eqn:E; [|discriminate]. injection H as <-.
      rewrite (h_ln v s Nv Zv E), m_fin. reflexivity.
    - injection H as <-. reflexivity.
    - injection H as <-. destruct n; reflexivity.
  Qed.

  Lemma m_gpow : forall x n, gm (gpow O1 x n) = gpow O2 (gm x) n.
  Proof.
    induction n as [|n IH]; cbn [gpow gmap].
    - unfold oneT. rewrite h_ofQ. reflexivity.
    - rewrite m_gmul, IH. reflexivity.
  Qed.

  Lemma m_ground : forall d x, gm (ground O1 d x) = ground O2 d (gm x).
  Proof.
    intros d x. pose proof (m_sgn x) as Sx.
    destruct x as [v z| |n]; cbn [ground gmap] in *; try reflexivity.
    rewrite m_fin, h_rnd, Sx. reflexivity.
  Qed.

  Lemma m_gltb : forall x y, gltb O2 (gm x) (gm y) = gltb O1 x y.
  Proof. intros [a za| |na] [b zb| |nb]; cbn [gltb gmap]; try reflexivity. apply h_ltb. Qed.
  Lemma m_gnumeq : forall x y, gnumeq O2 (gm x) (gm y) = gnumeq O1 x y.
  Proof. intros [a za| |na] [b zb| |nb]; cbn [gnumeq gmap]; try reflexivity. apply h_eqb. Qed.
  Lemma m_gcmp : forall c x y, gcmp O2 c (gm x) (gm y) = gcmp O1 c x y.
  Proof. intros c x y. destruct c; cbn [gcmp]; rewrite ?m_gltb, ?m_gnumeq; reflexivity. Qed.
  Lemma m_gsame : forall x y, gsame O2 (gm x) (gm y) = gsame O1 x y.
  Proof. intros [a za| |na] [b zb| |nb]; cbn [gsame gmap]; try reflexivity. rewrite h_eqb. reflexivity. Qed.

  Lemma m_gmax2 : forall a y, gm (gmax2 O1 a y) = gmax2 O2 (gm a) (gm y).
  Proof.
    intros a y. unfold gmax2. rewrite !m_gisnan, m_gltb.
    destruct (gisnan a); [reflexivity|]. destruct (gisnan y); [reflexivity|]. destruct (gltb O1 a y); reflexivity.
  Qed.

  Lemma m_gmaxl : forall xs r, gmaxl O1 xs = Some r -> gmaxl O2 (map gm xs) = Some (gm r).
  Proof.
    intros [|y ys] r H; [discriminate|]. cbn [gmaxl map] in *. injection H as <-. f_equal.
    revert y. induction ys as [|z ys IH]; intros y; cbn [fold_left map]; [reflexivity|].
    rewrite <- m_gmax2. apply IH.
  Qed.

  Lemma geval_morph : forall e xs x v,
    geval O1 e xs x = Some v -> geval O2 e (map gm xs) (gm x) = Some (gm v).
  Proof.
    induction e; intros xs x v; cbn [geval].
    - intros H. injection H as <-. reflexivity.
    - intros H. injection H as <-. cbn [gmap]. rewrite h_ofQ. reflexivity.
    - apply (obind_morph2 gm gm); [apply IHe1 | apply IHe2 | apply m_gadd].
    - apply (obind_morph2 gm gm); [apply IHe1 | apply IHe2 | apply m_gsub].
    - apply (obind_morph2 gm gm); [apply IHe1 | apply IHe2 | apply m_gmul].
    - apply (obind_morph2 gm gm); [apply IHe1 | apply IHe2 | apply m_gdiv].
    - apply (obind_morph1 gm gm); [apply IHe | apply m_gneg].
    - apply (obind_morph gm gm); [apply IHe | apply m_gsqrt].
    - apply (obind_morph gm gm); [apply IHe | apply m_glog].
    - apply (obind_morph1 gm gm); [apply IHe | apply m_gabs].
    - apply (obind_morph1 gm gm); [apply IHe | intros u; apply m_gpow].
    - apply (obind_morph1 gm gm); [apply IHe | apply m_ground].
    - apply (obind_morph gm gm); [apply IHe1|]. intros u r. apply (obind_morph gm gm); [apply IHe2|]. intros w r'.
      rewrite m_gcmp. destruct (gcmp O1 c u w); [apply IHe3 | apply IHe4].
    - apply m_gmaxl.
  Qed.

End Morphism.

Local Open Scope R_scope.

Lemma Qltb_Rltb : forall a b, Rltb (Q2R a) (Q2R b) = Qltb a b.
Proof.
  intros a b. unfold Qltb. destruct (Qcompare_spec a b) as [H|H|H].
  - apply Rltb_false. rewrite (Qeq_eqR _ _ H). lra.
  - apply Rltb_true. apply Qlt_Rlt. exact H.
  - apply Rltb_false. apply Rlt_le. apply Qlt_Rlt. exact H.
Qed.

Lemma Qeqb_Reqb : forall a b, Reqb (Q2R a) (Q2R b) = Qeq_bool a b.
Proof.
  intros a b. destruct (Qeq_bool a b) eqn:E.
  - apply Reqb_true. apply Qeq_eqR. apply Qeq_bool_eq. exact E.
  - apply Reqb_false. intros H. apply eqR_Qeq in H. apply Qeq_eq_bool in H. congruence.
Qed.

Lemma Zsqrt_exact_spec : forall z s, Zsqrt_exact z = Some s -> (0 <= s /\ s * s = z)%Z.
Proof.
  intros z s H. unfold Zsqrt_exact in H. destruct (Z.eqb_spec (Z.sqrt z * Z.sqrt z) z) as [E|E]; [|discriminate].
  injection H as <-. split; [apply Z.sqrt_nonneg | exact E].
Qed.

Lemma Qsqrt_exact_R : forall q r, Qsqrt_exact q = Some r -> sqrt (Q2R q) = Q2R r.
Proof.
  intros q r H. unfold Qsqrt_exact in H.
  destruct (Zsqrt_exact (Qnum (Qred q))) as [a|] eqn:Ea; [|discriminate].
  destruct (Zsqrt_exact (Zpos (Qden (Qred q)))) as [b|] eqn:Eb; [|discriminate].
  destruct (Z.eqb_spec b 0) as [Zb|Zb]; [discriminate|]. injection H as <-.
  apply Zsqrt_exact_spec in Ea. apply Zsqrt_exact_spec in Eb. destruct Ea as [Pa Ea]. destruct Eb as [Pb Eb].
  assert (Bp : (0 < b)%Z) by lia.
  rewrite <- (Qeq_eqR _ _ (Qred_correct q)).
  unfold Q2R. cbn [Qnum Qden]. rewrite <- Ea, <- Eb. rewrite Z2Pos.id by exact Bp. rewrite !mult_IZR.
  assert (Rb : 0 < IZR b) by (apply IZR_lt; exact Bp).
  assert (Ra : 0 <= IZR a) by (apply IZR_le; exact Pa).
  replace (IZR a * IZR a * / (IZR b * IZR b)) with ((IZR a * / IZR b) * (IZR a * / IZR b)) by (field; lra).
  apply sqrt_square. apply Rmult_le_pos; [exact Ra|]. apply Rlt_le. apply Rinv_0_lt_compat. exact Rb.
Qed.

Lemma Qfloor_Int_part : forall q, Int_part (Q2R q) = Qfloor q.
Proof.
  intros q. apply Int_part_unique. split.
  - rewrite <- Q2R_inject_Z. apply Qle_Rle. apply Qfloor_le.
  - replace (IZR (Qfloor q) + 1) with (IZR (Qfloor q + 1)) by (rewrite plus_IZR; reflexivity).
    rewrite <- Q2R_inject_Z. apply Qlt_Rlt. apply Qlt_floor.
Qed.

Lemma rheQ_rhe : forall q, rhe (Q2R q) = rheQ q.
Proof.
  intros q. unfold rhe, rheQ. rewrite Qfloor_Int_part.
  set (f := Qfloor q).
  assert (E : Q2R q - IZR f = Q2R (q - inject_Z f)).
  { rewrite Q2R_minus, Q2R_inject_Z. reflexivity. }
  rewrite E.
  assert (H12 : Q2R (1 # 2) = 1 / 2) by (unfold Q2R; cbn; lra).
  rewrite <- H12.
  destruct (Qcompare_spec (q - inject_Z f) (1 # 2)) as [H|H|H].
  - rewrite (Qeq_eqR _ _ H).
    destruct (Rlt_dec (Q2R (1 # 2)) (Q2R (1 # 2))); [lra|]. reflexivity.
  - apply Qlt_Rlt in H. destruct (Rlt_dec (Q2R (q - inject_Z f)) (Q2R (1 # 2))); [reflexivity | contradiction].
  - apply Qlt_Rlt in H. destruct (Rlt_dec (Q2R (q - inject_Z f)) (Q2R (1 # 2))); [lra|].
    destruct (Rlt_dec (Q2R (1 # 2)) (Q2R (q - inject_Z f))); [reflexivity | contradiction].
Qed.

Lemma pow10_pos : forall d, (0 < 10 ^ Z.of_nat d)%Z.
Proof. intros. apply Z.pow_pos_nonneg; lia. Qed.

Lemma rndQ_rnd : forall d q, Q2R (rndQ d q) = rnd d (Q2R q).
Proof.
  intros d q. unfold rndQ, rnd.
  assert (P : Q2R (inject_Z (10 ^ Z.of_nat d)) = 10 ^ d).
  { rewrite Q2R_inject_Z. rewrite <- pow_IZR. reflexivity. }
  rewrite Q2R_div.
  - rewrite Q2R_inject_Z, P. rewrite <- rheQ_rhe. rewrite Q2R_mult, P. reflexivity.
  - intros H. apply Qeq_eqR in H. rewrite P in H. unfold Q2R in H. cbn in H.
    assert (0 < 10 ^ d) by (apply pow_lt; lra). lra.
Qed.

Lemma Qis_zero : forall b, is_zero OpsQ b = false -> ~ (b == 0)%Q.
Proof.
  intros b H E. unfold is_zero, zeroT in H. cbn in H. apply Qeq_eq_bool in E. congruence.
Qed.

(* the executable instance answers what the specification says, wherever it answers *)
Lemma denQ_sound : forall e xs x v,
  denQ e xs x = Some v -> den3 e (map (gmap Q2R) xs) (gmap Q2R x) = Some (gmap Q2R v).
Proof.
  unfold denQ, den3. apply (geval_morph OpsQ OpsR Q2R); cbn.
  - reflexivity.
  - apply Q2R_plus.
  - apply Q2R_mult.
  - apply Q2R_opp.
  - intros a b H. apply Q2R_div. apply Qis_zero. exact H.
  - apply Qltb_Rltb.
  - apply Qeqb_Reqb.
  - intros a r _ H. f_equal. apply Qsqrt_exact_R. exact H.
  - intros a r _ _ H. unfold Qln_exact in H. destruct (Qeq_bool a 1) eqn:E; [|discriminate]. injection H as <-.
    apply Qeq_bool_eq in E. rewrite (Qeq_eqR _ _ E). f_equal.
    rewrite Q2R_1, Q2R_0. apply ln_1.
  - intros d a. apply rndQ_rnd.
Qed.

Lemma pres_val_Q2R : forall p, pres_val OpsR p = option_map (gmap Q2R) (pres_val OpsQ p).
Proof.
  intros [q neg| |neg|]; cbn [pres_val option_map]; try reflexivity.
  destruct neg; [|reflexivity]. f_equal.
  change (gneg OpsR (gmap Q2R (GFin q false)) = gmap Q2R (gneg OpsQ (GFin q false))).
  symmetry. apply (m_gneg OpsQ OpsR Q2R); cbn.
  - reflexivity.
  - apply Q2R_opp.
  - apply Qeqb_Reqb.
Qed.

Lemma all_some_map_option : forall A B (g : A -> B) (l : list (option A)),
  all_some (map (option_map g) l) = option_map (map g) (all_some l).
Proof.
  induction l as [|[a|] l IH]; cbn [all_some map option_map]; [reflexivity | | reflexivity].
  rewrite IH. destruct (all_some l); reflexivity.
Qed.

Lemma parse_column_Q2R : forall cells,
  parse_column OpsR cells = option_map (map (gmap Q2R)) (parse_column OpsQ cells).
Proof.
  intros. unfold parse_column. rewrite <- all_some_map_option, map_map. f_equal.
  apply map_ext. intros s. apply pres_val_Q2R.
Qed.

(* soundness of the executable keep decision: if [keepQ e cells] answers b, then in the specification model
   (real arithmetic, any text rendering that is faithful on the values of this column) the transformed column
   of e is kept iff b *)
Lemma keepQ_sound : forall (render : gval R -> str) (D : gval R -> Prop),
  (forall a b, D a -> D b -> str_eqb (render a) (render b) = gsame OpsR a b) ->
  (forall a, D a -> str_eqb nan_str (render a) = gisnan a) ->
  forall e cells b, keepQ e cells = Some b ->
  exists xs vs, parse_column OpsR cells = Some xs
    /\ map (den3 e xs) xs = map Some vs
    /\ rendered_column render e xs = Some (map render vs)
    /\ (Forall D vs -> keep_spec (map render vs) = b).
Proof.
  intros render D Hf Hn e cells b H. unfold keepQ, keepQ_parsed in H.
  destruct (parse_column OpsQ cells) as [xq|] eqn:Ep; [|discriminate].
  destruct (all_some (map (fun x => denQ e xq x) xq)) as [vq|] eqn:Ev; [|discriminate].
  injection H as <-. apply all_some_spec in Ev.
  exists (map (gmap Q2R) xq), (map (gmap Q2R) vq).
  split; [rewrite parse_column_Q2R, Ep; reflexivity|].
  assert (Hv : map (den3 e (map (gmap Q2R) xq)) (map (gmap Q2R) xq) = map Some (map (gmap Q2R) vq)).
  { rewrite !map_map. revert Ev. apply map_eq_transfer. intros x v. apply denQ_sound. }
  split; [exact Hv|]. split.
  - unfold rendered_column. apply all_some_spec.
    rewrite <- (map_map (den3 e (map (gmap Q2R) xq)) (option_map render)), Hv, !map_map. reflexivity.
  - intros Hd. rewrite (keep_text_iff_classes render D Hf Hn) by exact Hd.
    apply (keep_by_map (gmap Q2R) (gsame OpsQ) (gsame OpsR) (fun _ => True)).
    + intros. apply (m_gsame OpsQ OpsR Q2R), Qeqb_Reqb.
    + intros a _. apply (m_gisnan Q2R).
    + apply Forall_forall. intros; exact I.
Qed.

(* on finite data, den3 refines den: wherever the formula has a real value in the sense of       *)
(* Transform.den (every intermediate result finite), den3 yields that finite value               *)

Definition isfin (g : gval R) (r : R) : Prop := exists z, g = GFin r z.

Lemma fin_isfin : forall v z, isfin (fin OpsR v z) v.
Proof. intros. unfold fin. eexists; reflexivity. Qed.

Lemma is_zero_R : forall v, is_zero OpsR v = Reqb v 0.
Proof. intros. unfold is_zero, zeroT. cbn. rewrite Q2R_0. reflexivity. Qed.
Lemma is_neg_R : forall v, is_neg OpsR v = Rltb v 0.
Proof. intros. unfold is_neg, zeroT. cbn. rewrite Q2R_0. reflexivity. Qed.

Lemma gcmp_fin : forall c u v zu zv, gcmp OpsR c (GFin u zu) (GFin v zv) = cmpR c u v.
Proof.
  intros. destruct c; cbn [gcmp gltb gnumeq cmpR OpsR o_ltb o_eqb]; try reflexivity.
  - destruct (Rltb_cases u v) as [[A ->]|[A ->]]; destruct (Rltb_cases v u) as [[B ->]|[B ->]];
      destruct (Reqb_cases u v) as [[C ->]|[C ->]]; cbn; try reflexivity; exfalso; lra.
  - destruct (Rltb_cases u v) as [[A ->]|[A ->]]; destruct (Rltb_cases v u) as [[B ->]|[B ->]];
      destruct (Reqb_cases u v) as [[C ->]|[C ->]]; cbn; try reflexivity; exfalso; lra.
Qed.

Lemma gpow_fin : forall u z n, isfin (gpow OpsR (GFin u z) n) (u ^ n).
Proof.
  induction n as [|n IH]; cbn [gpow pow].
  - unfold oneT. cbn. rewrite Q2R_1. eexists; reflexivity.
  - destruct IH as [z' ->]. cbn [gmul OpsR o_mul]. rewrite Rmult_comm. apply fin_isfin.
Qed.

Lemma gmax_fold_fin : forall ys ys3 y y3, Forall2 isfin ys3 ys -> isfin y3 y ->
  isfin (fold_left (gmax2 OpsR) ys3 y3) (fold_left Rmax ys y).
Proof.
  induction ys as [|a ys IH]; intros ys3 y y3 H Hy; inversion H; subst; cbn [fold_left]; [exact Hy|].
  apply IH; [assumption|].
  destruct Hy as [zy ->]. match goal with H : isfin _ a |- _ => destruct H as [za ->] end.
  unfold gmax2. cbn [gisnan gltb OpsR o_ltb]. unfold Rmax.
  destruct (Rltb_cases y a) as [[A ->]|[A ->]]; destruct (Rle_dec y a) as [B|B]; try (eexists; reflexivity); try (exfalso; lra).
  assert (y = a) by lra. subst. eexists; reflexivity.
Qed.

Definition yields (o : option (gval R)) (r : R) : Prop := exists g, o = Some g /\ isfin g r.

Lemma yields_some : forall g r, isfin g r -> yields (Some g) r.
Proof. intros g r H. exists g. split; [reflexivity | exact H]. Qed.

(* one step of the evaluation: over R a match on an option, in the composed model an [obind] *)
Lemma yields_bind : forall (a : option R) (a3 : option (gval R)) (k : R -> option R) (k3 : gval R -> option (gval R)) r,
  (forall u, a = Some u -> yields a3 u) ->
  (forall u z, k u = Some r -> yields (k3 (GFin u z)) r) ->
  match a with Some u => k u | None => None end = Some r -> yields (obind a3 k3) r.
Proof.
  intros a a3 k k3 r Ha Hk H. destruct a as [u|]; [|discriminate].
  destruct (Ha u eq_refl) as [g [-> [z ->]]]. cbn [obind]. apply Hk. exact H.
Qed.

Lemma yields_lift1 : forall (h : R -> R) (h3 : gval R -> gval R) a a3 r,
  (forall u, a = Some u -> yields a3 u) ->
  (forall u z, isfin (h3 (GFin u z)) (h u)) ->
  olift1 h a = Some r -> yields (obind a3 (fun g => Some (h3 g))) r.
Proof.
  intros h h3 a a3 r Ha Hh. unfold olift1. apply yields_bind; [exact Ha|].
  intros u z E. injection E as <-. apply yields_some, Hh.
Qed.

Lemma yields_lift2 : forall (h : R -> R -> R) (h3 : gval R -> gval R -> gval R) a b a3 b3 r,
  (forall u, a = Some u -> yields a3 u) ->
  (forall u, b = Some u -> yields b3 u) ->
  (forall u v zu zv, isfin (h3 (GFin u zu) (GFin v zv)) (h u v)) ->
  olift2 h a b = Some r -> yields (obind a3 (fun g => obind b3 (fun g' => Some (h3 g g')))) r.
Proof.
  intros h h3 a b a3 b3 r Ha Hb Hh. unfold olift2. apply yields_bind; [exact Ha|].
  intros u zu. apply yields_bind; [exact Hb|].
  intros v zv E. injection E as <-. apply yields_some, Hh.
Qed.

Lemma den_den3 : forall e xs xs3 x x3 r,
  Forall2 isfin xs3 xs -> isfin x3 x -> den e xs x = Some r -> exists g, den3 e xs3 x3 = Some g /\ isfin g r.
Proof.
  unfold den3. intros e xs xs3 x x3 r Hxs Hx. revert r.
  change (forall r, den e xs x = Some r -> yields (geval OpsR e xs3 x3) r).
  induction e; intros r; cbn [den geval].
  - intros H. injection H as <-. apply yields_some, Hx.
  - intros H. injection H as <-. apply yields_some. eexists; reflexivity.
  - apply yields_lift2; [exact IHe1 | exact IHe2 | intros; apply fin_isfin].
  - apply yields_lift2; [exact IHe1 | exact IHe2 |].
    intros. cbn [gsub gneg gadd fin OpsR o_add o_opp]. apply fin_isfin.
  - apply yields_lift2; [exact IHe1 | exact IHe2 | intros; apply fin_isfin].
  - apply yields_bind; [exact IHe1|]. intros u zu. apply yields_bind; [exact IHe2|]. intros v zv.
    destruct (Reqb v 0) eqn:Zv; [discriminate|]. intros H. injection H as <-.
    cbn [gdiv]. rewrite is_zero_R, Zv. apply yields_some, fin_isfin.
  - apply yields_lift1; [exact IHe | intros; apply fin_isfin].
  - apply yields_bind; [exact IHe|]. intros u z.
    destruct (Rltb u 0) eqn:Nu; [discriminate|]. intros H. injection H as <-.
    cbn [gsqrt]. rewrite is_neg_R, Nu, is_zero_R. destruct (Reqb_cases u 0) as [[Z ->]|[Z ->]].
    + subst u. rewrite sqrt_0. apply yields_some. eexists; reflexivity.
    + apply yields_some, fin_isfin.
  - apply yields_bind; [exact IHe|]. intros u z.
    destruct (Rltb_cases 0 u) as [[P ->]|[P ->]]; [|discriminate]. intros H. injection H as <-.
    cbn [glog]. rewrite is_neg_R, is_zero_R, Rltb_false, Reqb_false by lra. apply yields_some, fin_isfin.
  - apply yields_lift1; [exact IHe|]. intros u z. cbn [gabs]. rewrite is_neg_R.
    destruct (Rltb_cases u 0) as [[A ->]|[A ->]]; cbn [OpsR o_opp].
    + rewrite Rabs_left by lra. apply fin_isfin.
    + rewrite Rabs_right by lra. apply fin_isfin.
  - apply yields_lift1; [exact IHe | intros; apply gpow_fin].
  - apply yields_lift1; [exact IHe | intros; apply fin_isfin].
  - apply yields_bind; [exact IHe1|]. intros u zu. apply yields_bind; [exact IHe2|]. intros v zv.
    rewrite gcmp_fin. destruct (cmpR c u v); [apply IHe3 | apply IHe4].
  - intros H. destruct xs as [|y ys]; [discriminate|]. cbn [list_max] in H. injection H as <-.
    inversion Hxs; subst. cbn [gmaxl]. apply yields_some, gmax_fold_fin; assumption.
Qed.

(* the numeric parse agrees with Coq's own valuation of decimal numerals (N.of_uint)              *)
Local Close Scope R_scope.

(* digits_val reads a numeral as Pos.of_uint_acc does: the accumulator is the value of the digits already read *)
Lemma dv_acc : forall l p, digits_val (Zpos p) (uint_codes l) = Zpos (Pos.of_uint_acc l p).
Proof.
  induction l; intros p; cbn [uint_codes digits_val Pos.of_uint_acc]; [reflexivity|..];
    rewrite <- IHl; f_equal; cbn [Z.of_N]; rewrite ?Pos2Z.inj_add, ?Pos2Z.inj_mul; lia.
Qed.

Lemma dv_uint : forall l, digits_val 0 (uint_codes l) = Z.of_N (Pos.of_uint l).
Proof.
  induction l; cbn [uint_codes digits_val Pos.of_uint]; [reflexivity | exact IHl |..];
    cbn [Z.of_N]; rewrite <- dv_acc; f_equal.
Qed.

Lemma uint_codes_digits : forall l, forallb is_digit (uint_codes l) = true.
Proof. induction l; cbn [uint_codes forallb]; [reflexivity|..]; rewrite IHl; reflexivity. Qed.

Lemma digit_not_blank : forall c, is_digit c = true -> is_blank c = false.
Proof.
  intros c H. apply is_digit_range in H. unfold is_blank.
  rewrite !orb_false_iff, !andb_false_iff, !N.eqb_neq, !N.leb_gt. lia.
Qed.

Lemma lower_digit : forall c, is_digit c = true -> lower c = c.
Proof.
  intros c H. apply is_digit_range in H. unfold lower.
  replace (N.leb 65 c) with false; [reflexivity|]. symmetry. apply N.leb_gt. lia.
Qed.

(* a word that starts with a digit is none of "nan", "inf", "infinity" *)
Lemma str_eqb_digit_letter : forall c r d w, is_digit c = true -> (57 < d)%N -> str_eqb (c :: r) (d :: w) = false.
Proof.
  intros c r d w H Hd. apply is_digit_range in H. cbn [str_eqb].
  replace (N.eqb c d) with false; [reflexivity|]. symmetry. apply N.eqb_neq. lia.
Qed.

Lemma drop_blanks_digit : forall c r, is_digit c = true -> drop_blanks (c :: r) = c :: r.
Proof. intros c r H. cbn [drop_blanks]. rewrite (digit_not_blank c H). reflexivity. Qed.

Lemma trim_digits : forall s, forallb is_digit s = true -> trim s = s.
Proof.
  intros s H. unfold trim.
  assert (D : forall l, forallb is_digit l = true -> drop_blanks l = l).
  { intros [|c r] Hl; [reflexivity|]. apply drop_blanks_digit. cbn [forallb] in Hl. apply andb_true_iff in Hl. tauto. }
  rewrite (D s H). rewrite D; [apply rev_involutive|].
  apply forallb_forall. intros x Hx. apply in_rev in Hx. rewrite forallb_forall in H. apply H. exact Hx.
Qed.

Lemma span_us_digits : forall s b, forallb is_digit s = true -> span_digits_us s b = Some (s, []).
Proof.
  induction s as [|c r IH]; intros b H; cbn [span_digits_us]; [reflexivity|].
  cbn [forallb] in H. apply andb_true_iff in H. destruct H as [H1 H2]. rewrite H1, (IH true H2). reflexivity.
Qed.

Lemma parse_py_digits : forall c ds, forallb is_digit (c :: ds) = true ->
  parse_py (c :: ds) = PVal (inject_Z (digits_val 0 (c :: ds))) false.
Proof.
  intros c ds H. unfold parse_py. rewrite (trim_digits _ H).
  assert (Hc : is_digit c = true) by (cbn [forallb] in H; apply andb_true_iff in H; tauto).
  fold (sign_split (c :: ds)). rewrite (sign_split_digit c ds Hc).
  cbn [map s2l list_ascii_of_string]. rewrite (lower_digit c Hc).
  rewrite !(str_eqb_digit_letter c _ _ _ Hc) by reflexivity. cbn [orb].
  rewrite (span_us_digits _ false H).
  cbn [is_nil andb exponent_us app length Z.of_nat Z.sub Z.leb Z.compare Z.opp].
  rewrite app_nil_r. cbn [Z.pow Z.pow_pos Pos.iter Z.mul]. rewrite Z.mul_1_r. reflexivity.
Qed.

(* for every decimal numeral u (as Coq's own number notation reads it) *)
Lemma parse_py_numeral : forall u, u <> Decimal.Nil ->
  parse_py (uint_codes u) = PVal (inject_Z (Z.of_N (N.of_uint u))) false.
Proof.
  intros u Hu. pose proof (uint_codes_digits u) as D. pose proof (dv_uint u) as V.
  destruct (uint_codes u) as [|c ds] eqn:E.
  - destruct u; cbn in E; congruence.
  - rewrite (parse_py_digits c ds D), V. reflexivity.
Qed.

Lemma parse_py_print : forall n, parse_py (dec n) = PVal (inject_Z (Z.of_N n)) false.
Proof.
  intros n. unfold dec. rewrite parse_py_numeral.
  - rewrite DecimalN.Unsigned.of_to. reflexivity.
  - destruct n as [|p]; [discriminate|]. cbn. intros H.
    pose proof (DecimalPos.Unsigned.of_to p) as T. rewrite H in T. discriminate.
Qed.

(* doubles vs integers in the keep rule: any rounding of the quotient that is monotone and has    *)
(* relative error at most 2^-53 decides k/n < 0.8 and k/n < 0.75 exactly as 5k < 4n and 4k < 3n,   *)
(* for n < 2^50                                                                                  *)
Local Open Scope R_scope.

Section FloatThreshold.
  Variable rn : R -> R.
  Let u := / 2 ^ 53.
  Hypothesis rn_mono : forall x y, x <= y -> rn x <= rn y.
  Hypothesis rn_err : forall x, 0 <= x -> x * (1 - u) <= rn x <= x * (1 + u).

  (* The thresholds are a / b with a <= 4 (4/5 and 3/4).  For integers, b*k < a*n leaves a gap b*k + 1 <= a*n, that is
     a/b - k/n >= 1/(b*n); the two rounding errors together are at most u*(k/n + a/b) <= 8*u*n/(b*n), below the gap for n < 2^50. *)
  Lemma threshold_exact : forall a b k n : Z,
    (0 < a)%Z -> (0 < b)%Z -> (a <= 4)%Z -> (0 <= k)%Z -> (0 < n)%Z -> (n < 2 ^ 50)%Z ->
    (rn (IZR k / IZR n) < rn (IZR a / IZR b) <-> (b * k < a * n)%Z).
  Proof.
    intros a b k n Ha Hb Ha4 Hk Hn Hbig.
    assert (Ra : 0 < IZR a) by (apply IZR_lt; exact Ha).
    assert (Rb : 0 < IZR b) by (apply IZR_lt; exact Hb).
    assert (Rk : 0 <= IZR k) by (apply IZR_le; exact Hk).
    assert (Rn : 0 < IZR n) by (apply IZR_lt; exact Hn).
    assert (Rbn : 0 < IZR b * IZR n) by (apply Rmult_lt_0_compat; assumption).
    split.
    - intros H. apply Z.nle_gt. intros L. apply IZR_le in L. rewrite !mult_IZR in L.
      assert (Q : IZR a / IZR b <= IZR k / IZR n).
      { apply Rmult_le_reg_r with (r := IZR b * IZR n); [exact Rbn|].
        replace (IZR a / IZR b * (IZR b * IZR n)) with (IZR a * IZR n) by (field; lra).
        replace (IZR k / IZR n * (IZR b * IZR n)) with (IZR b * IZR k) by (field; lra). exact L. }
      apply rn_mono in Q. lra.
    - intros L. assert (G : IZR b * IZR k + 1 <= IZR a * IZR n).
      { rewrite <- !mult_IZR, <- plus_IZR. apply IZR_le. lia. }
      assert (U : 0 < u) by (unfold u; apply Rinv_0_lt_compat, pow_lt; lra).
      assert (Un : u * (8 * IZR n) < 1).
      { assert (B : IZR n < 2 ^ 50) by (rewrite (pow_IZR 2 50); apply IZR_lt; exact Hbig).
        assert (P53 : 2 ^ 53 = 8 * 2 ^ 50) by (simpl; lra).
        unfold u. rewrite P53. apply Rmult_lt_reg_r with (r := 2 ^ 50); [lra|].
        replace (/ (8 * 2 ^ 50) * (8 * IZR n) * 2 ^ 50) with (IZR n) by (field; lra). lra. }
      assert (X : 0 <= IZR k / IZR n) by (apply Rmult_le_pos; [lra | apply Rlt_le, Rinv_0_lt_compat; lra]).
      assert (T : 0 <= IZR a / IZR b) by (apply Rmult_le_pos; [lra | apply Rlt_le, Rinv_0_lt_compat; lra]).
      destruct (rn_err _ X) as [_ E1]. destruct (rn_err _ T) as [E2 _].
      apply Rle_lt_trans with (1 := E1). apply Rlt_le_trans with (2 := E2).
      apply Rmult_lt_reg_r with (r := IZR b * IZR n); [exact Rbn|].
      replace (IZR k / IZR n * (1 + u) * (IZR b * IZR n)) with (IZR b * IZR k * (1 + u)) by (field; lra).
      replace (IZR a / IZR b * (1 - u) * (IZR b * IZR n)) with (IZR a * IZR n * (1 - u)) by (field; lra).
      assert (A4 : IZR a <= 4) by (apply IZR_le; exact Ha4).
      assert (U1 : u * (IZR b * IZR k) <= u * (IZR a * IZR n)) by (apply Rmult_le_compat_l; lra).
      assert (U2 : u * (IZR a * IZR n) <= u * (4 * IZR n)).
      { apply Rmult_le_compat_l; [lra|]. apply Rmult_le_compat_r; lra. }
      lra.
  Qed.
End FloatThreshold.

Lemma float_thresholds : forall rn : R -> R,
  (forall x y, x <= y -> rn x <= rn y) ->
  (forall x, 0 <= x -> x * (1 - / 2 ^ 53) <= rn x <= x * (1 + / 2 ^ 53)) ->
  forall k n : Z, (0 <= k)%Z -> (0 < n)%Z -> (n < 2 ^ 50)%Z ->
    (rn (IZR k / IZR n) < rn (4 / 5) <-> (5 * k < 4 * n)%Z)
    /\ (rn (IZR k / IZR n) < rn (3 / 4) <-> (4 * k < 3 * n)%Z).
Proof.
  intros rn H1 H2 k n Hk Hn Hb. split.
  - apply (threshold_exact rn H1 H2 4 5); lia.
  - apply (threshold_exact rn H1 H2 3 4); lia.
Qed.
