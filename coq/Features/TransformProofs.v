From Coq Require Import Ascii String.
From Coq Require Import List Qreals Reals Lia Lra.
From Outrank Require Import Common.ListFacts Features.Transform Features.Transform3 Gen.Presets Gen.TransformConstants Features.TransformTables.
From Outrank Require Common.Split.
Import ListNotations.
Local Close Scope R_scope.
Local Close Scope Q_scope.

Lemma str_eqb_eq : forall a b, str_eqb a b = true <-> a = b.
Proof. exact (eqb_list_eq N.eqb N.eqb_eq). Qed.

Lemma str_eqb_refl : forall a, str_eqb a a = true.
Proof. intros. apply str_eqb_eq. reflexivity. Qed.

Lemma str_eqb_neq : forall a b, str_eqb a b = false <-> a <> b.
Proof. intros. rewrite <- str_eqb_eq. symmetry. apply not_true_iff_false. Qed.

Lemma mem_In : forall k l, mem k l = true <-> In k l.
Proof.
  induction l as [|x l IH]; cbn [mem In].
  - split; [discriminate | tauto].
  - rewrite orb_true_iff, IH, str_eqb_eq. split; intros [H|H]; auto.
Qed.

Lemma lookup_In : forall A k (t : list (str * A)) v, lookup k t = Some v -> In (k, v) t.
Proof.
  induction t as [|[k' v'] t IH]; cbn [lookup]; intros v H; [discriminate|].
  destruct (str_eqb k k') eqn:E.
  - apply str_eqb_eq in E. injection H as ->. subst. left. reflexivity.
  - right. apply IH. exact H.
Qed.

Lemma lookup_names : forall A k (t : list (str * A)), In k (names t) <-> lookup k t <> None.
Proof.
  induction t as [|[k' v'] t IH]; cbn [lookup names map In fst].
  - split; [tauto | congruence].
  - destruct (str_eqb k k') eqn:E.
    + apply str_eqb_eq in E. subst. split; [congruence | auto].
    + apply str_eqb_neq in E. fold (names t). rewrite <- IH. split; [intros [H|H]; [congruence | exact H] | auto].
Qed.

Lemma lookup_map_val : forall A (f : str -> A -> A) k (t : list (str * A)),
  lookup k (map (fun kv => (fst kv, f (fst kv) (snd kv))) t) =
  match lookup k t with Some v => Some (f k v) | None => None end.
Proof.
  induction t as [|[k' v'] t IH]; cbn [lookup map fst snd]; [reflexivity|].
  destruct (str_eqb k k') eqn:E; [|exact IH].
  apply str_eqb_eq in E. subst. reflexivity.
Qed.

Lemma lookup_app : forall A k (a b : list (str * A)),
  lookup k (a ++ b) = match lookup k a with Some v => Some v | None => lookup k b end.
Proof.
  induction a as [|[k' v'] a IH]; intros b; cbn [lookup app]; [reflexivity|].
  destruct (str_eqb k k'); [reflexivity | apply IH].
Qed.

Lemma lookup_filter_key : forall A (p : str -> bool) k (t : list (str * A)),
  lookup k (filter (fun kv => p (fst kv)) t) = if p k then lookup k t else None.
Proof.
  induction t as [|[k' v'] t IH]; cbn [lookup filter fst].
  - destruct (p k); reflexivity.
  - destruct (p k') eqn:P; cbn [lookup]; destruct (str_eqb k k') eqn:E.
    + apply str_eqb_eq in E. subst. rewrite P. reflexivity.
    + exact IH.
    + apply str_eqb_eq in E. subst. rewrite IH, P. reflexivity.
    + exact IH.
Qed.

Lemma lookup_merge : forall A k (a b : list (str * A)),
  lookup k (merge a b) = match lookup k b with Some v => Some v | None => lookup k a end.
Proof.
  intros. unfold merge. rewrite lookup_app.
  rewrite (lookup_map_val A (fun k0 v0 => match lookup k0 b with Some v => v | None => v0 end)).
  rewrite (lookup_filter_key A (fun k0 => negb (mem k0 (names a)))).
  destruct (lookup k a) eqn:Ea.
  - destruct (lookup k b); reflexivity.
  - assert (M : mem k (names a) = false).
    { destruct (mem k (names a)) eqn:M; [|reflexivity].
      apply mem_In in M. apply lookup_names in M. congruence. }
    rewrite M. cbn. destruct (lookup k b); reflexivity.
Qed.

Lemma lookup_last_app : forall A k (ps qs : list (list (str * A))),
  lookup_last k (ps ++ qs) = match lookup_last k qs with Some v => Some v | None => lookup_last k ps end.
Proof.
  induction ps as [|p ps IH]; intros qs; cbn [app lookup_last].
  - destruct (lookup_last k qs); reflexivity.
  - rewrite IH. destruct (lookup_last k qs); reflexivity.
Qed.

Lemma lookup_union : forall A k (ps : list (list (str * A))), lookup k (union ps) = lookup_last k ps.
Proof.
  intros A k ps. unfold union.
  refine (fold_left_snoc_inv (fun pre acc => lookup k acc = lookup_last k pre) merge _ ps [] [] eq_refl).
  intros pre acc p H. rewrite lookup_merge, lookup_last_app, H. reflexivity.
Qed.

Lemma lookup_last_some : forall A k (ps : list (list (str * A))),
  lookup_last k ps <> None <-> exists p, In p ps /\ lookup k p <> None.
Proof.
  induction ps as [|p ps IH]; cbn [lookup_last In].
  - split; [congruence | intros [p [[] _]]].
  - destruct (lookup_last k ps) eqn:E.
    + split; [|congruence]. intros _. destruct IH as [IH _].
      destruct IH as [q [Hq Hk]]; [congruence|]. exists q. auto.
    + split.
      * intros H. exists p. auto.
      * intros [q [[->|Hq] Hk]]; [exact Hk|]. destruct IH as [_ IH]. exfalso. apply IH; [|reflexivity]. exists q. auto.
Qed.

Lemma names_union : forall A n (ps : list (list (str * A))),
  In n (names (union ps)) <-> exists p, In p ps /\ In n (names p).
Proof.
  intros. rewrite lookup_names, lookup_union, lookup_last_some.
  split; intros [p [Hp H]]; exists p; (split; [exact Hp|]); apply lookup_names; exact H.
Qed.

(* the last preset of the list that defines the name wins *)
Lemma union_last_wins : forall A k (ps qs : list (list (str * A))) p v,
  lookup k p = Some v -> (forall q, In q qs -> lookup k q = None) ->
  lookup k (union (ps ++ p :: qs)) = Some v.
Proof.
  intros A k ps qs p v Hp Hq. rewrite lookup_union, lookup_last_app. cbn [lookup_last].
  assert (E : lookup_last k qs = None).
  { destruct (lookup_last k qs) eqn:E; [|reflexivity].
    assert (H : lookup_last k qs <> None) by congruence.
    apply lookup_last_some in H. destruct H as [q [Hin Hk]]. rewrite (Hq q Hin) in Hk. congruence. }
  rewrite E, Hp. reflexivity.
Qed.

Lemma names_merge : forall A (a b : list (str * A)),
  names (merge a b) = names a ++ filter (fun k => negb (mem k (names a))) (names b).
Proof.
  intros. unfold merge, names. rewrite map_app, map_map. cbn [fst]. f_equal.
  induction b as [|[k v] b IH]; cbn [filter map fst]; [reflexivity|].
  destruct (negb (mem k (map fst a))); cbn [map fst]; rewrite IH; reflexivity.
Qed.

Lemma NoDup_names_merge : forall A (a b : list (str * A)),
  NoDup (names a) -> NoDup (names b) -> NoDup (names (merge a b)).
Proof.
  intros A a b Ha Hb. rewrite names_merge. apply NoDup_app_intro; [exact Ha | apply NoDup_filter; exact Hb |].
  intros x Hx Hf. apply filter_In in Hf. destruct Hf as [_ Hf].
  apply mem_In in Hx. rewrite Hx in Hf. discriminate.
Qed.

Lemma NoDup_names_union : forall A (ps : list (list (str * A))),
  (forall p, In p ps -> NoDup (names p)) -> NoDup (names (union ps)).
Proof.
  intros A ps. unfold union.
  refine (fold_left_snoc_inv (fun pre acc => (forall p, In p pre -> NoDup (names p)) -> NoDup (names acc))
                             merge _ ps [] [] _).
  - intros pre acc p IH H. apply NoDup_names_merge.
    + apply IH. intros q Hq. apply H, in_or_app. left. exact Hq.
    + apply H, in_or_app. right. left. reflexivity.
  - intros _. constructor.
Qed.

Lemma merge_nonempty : forall A (a b : list (str * A)), b <> [] -> merge a b <> [].
Proof.
  intros A a b Hb. destruct a as [|x a].
  - destruct b as [|y b]; [congruence|]. unfold merge. cbn. discriminate.
  - unfold merge. cbn. discriminate.
Qed.

Lemma select_fold : forall A (reg : list (str * list (str * A))) nss tabs acc,
  Forall2 (fun ns t => lookup ns reg = Some t /\ t <> []) nss tabs ->
  fold_left (select_step reg) nss (Some acc) = Some (fold_left merge tabs acc).
Proof.
  intros A reg nss tabs acc H. revert acc.
  induction H as [|ns t nss tabs [Hl Ht] _ IH]; intros acc; cbn [fold_left]; [reflexivity|].
  unfold select_step at 2. rewrite Hl.
  destruct t as [|kv sub]; [congruence|].
  pose proof (merge_nonempty A acc (kv :: sub) Ht) as Hn.
  destruct (merge acc (kv :: sub)) eqn:E; [congruence|]. apply IH.
Qed.

(* __init__ on a list of registered, non-empty presets = their union *)
Lemma select_valid : forall A (reg : list (str * list (str * A))) sep s tabs,
  Forall2 (fun ns t => lookup ns reg = Some t /\ t <> []) (split_on sep s) tabs ->
  select_gen reg sep s = Some (union tabs).
Proof. intros. unfold select_gen, union. apply select_fold. exact H. Qed.

(* sep.join(l) for a one-character separator *)
Fixpoint join (sep : N) (l : list str) : str :=
  match l with
  | [] => []
  | [w] => w
  | w :: r => w ++ sep :: join sep r
  end.

Lemma split_on_nonempty : forall sep s, split_on sep s <> [].
Proof. exact Split.split_on_nonnil. Qed.

Lemma split_on_join : forall sep l, l <> [] -> (forall w, In w l -> ~ In sep w) -> split_on sep (join sep l) = l.
Proof. exact Split.split_join. Qed.

Lemma Zpos_of_nat : forall n, n <> 0 -> Zpos (Pos.of_nat n) = Z.of_nat n.
Proof. intros n H. rewrite <- positive_nat_Z, Nat2Pos.id by exact H. reflexivity. Qed.

Lemma count_le_length : forall s l, count s l <= length l.
Proof. induction l as [|x l IH]; cbn [count length]; [lia|]. destruct (str_eqb s x); lia. Qed.

Lemma fold_max_ge : forall l0 l s, In s l ->
  count s l0 <= fold_right (fun s m => Nat.max (count s l0) m) 0 l.
Proof.
  induction l as [|x r IH]; intros s H; cbn [fold_right]; [destruct H|].
  destruct H as [->|H]; [lia|]. specialize (IH s H). lia.
Qed.

Lemma maxcount_ge : forall l s, In s l -> count s l <= maxcount l.
Proof. intros. unfold maxcount. apply fold_max_ge. assumption. Qed.

Lemma fold_max_attained : forall l0 l, l <> [] ->
  exists s, In s l /\ count s l0 = fold_right (fun s m => Nat.max (count s l0) m) 0 l.
Proof.
  induction l as [|x r IH]; intros H; [congruence|].
  cbn [fold_right]. destruct r as [|y r].
  - exists x. split; [left; reflexivity|]. cbn [fold_right]. lia.
  - destruct IH as [s [Hs Hc]]; [discriminate|].
    destruct (Nat.le_gt_cases (count x l0) (fold_right (fun s m => Nat.max (count s l0) m) 0 (y :: r))) as [Hle|Hgt].
    + exists s. split; [right; exact Hs|]. lia.
    + exists x. split; [left; reflexivity|]. lia.
Qed.

Lemma maxcount_attained : forall l, l <> [] -> exists s, In s l /\ count s l = maxcount l.
Proof. intros. unfold maxcount. apply fold_max_attained. assumption. Qed.

Lemma maxcount_le_length : forall l, maxcount l <= length l.
Proof.
  intros l. destruct l as [|x r]; [cbn; lia|].
  destruct (maxcount_attained (x :: r)) as [s [_ <-]]; [discriminate|]. apply count_le_length.
Qed.

Lemma dedup_In : forall l x, In x (dedup l) <-> In x l.
Proof.
  induction l as [|y l IH]; intros x; cbn [dedup In]; [tauto|].
  destruct (mem y l) eqn:M.
  - rewrite IH. apply mem_In in M. split; [auto|]. intros [->|H]; auto.
  - cbn [In]. rewrite IH. tauto.
Qed.

Lemma dedup_NoDup : forall l, NoDup (dedup l).
Proof.
  induction l as [|y l IH]; cbn [dedup]; [constructor|].
  destruct (mem y l) eqn:M; [exact IH|]. constructor; [|exact IH].
  rewrite dedup_In. intros H. apply mem_In in H. congruence.
Qed.

(* facts about the four statistics that make redundant tests of the rule harmless *)
Lemma count_all_equal : forall x l, (forall y, In y l -> y = x) -> count x l = length l.
Proof.
  induction l as [|y l IH]; intros H; cbn [count length]; [reflexivity|].
  rewrite (H y (or_introl eq_refl)), str_eqb_refl. rewrite IH; [reflexivity|].
  intros z Hz. apply H. right. exact Hz.
Qed.

Lemma distinct_one_all_equal : forall l x, In x l -> distinct l <= 1 -> forall y, In y l -> y = x.
Proof.
  intros l x Hx Hd y Hy. unfold distinct in Hd.
  apply dedup_In in Hx. apply dedup_In in Hy.
  destruct (dedup l) as [|a [|b r]]; cbn [length] in Hd; [destruct Hx | | lia].
  destruct Hx as [<-|[]]. destruct Hy as [<-|[]]. reflexivity.
Qed.

Lemma stats_facts : forall l, l <> [] ->
  1 <= length l /\ 1 <= distinct l /\ 1 <= maxcount l <= length l
  /\ (forall s, count s l <= length l) /\ (distinct l <= 1 -> maxcount l = length l).
Proof.
  intros l Hne. destruct l as [|x r]; [congruence|].
  assert (Hin : In x (x :: r)) by (left; reflexivity).
  split; [cbn [length]; lia|]. split.
  { unfold distinct. assert (H : In x (dedup (x :: r))) by (apply dedup_In; exact Hin).
    destruct (dedup (x :: r)); [destruct H | cbn [length]; lia]. }
  split.
  { split; [|apply maxcount_le_length].
    apply Nat.le_trans with (count x (x :: r)); [|apply maxcount_ge; exact Hin].
    cbn [count]. rewrite str_eqb_refl. lia. }
  split; [intros s; apply count_le_length|].
  intros Hd. apply Nat.le_antisymm; [apply maxcount_le_length|].
  rewrite <- (count_all_equal x (x :: r)); [apply maxcount_ge; exact Hin|].
  intros y Hy. apply (distinct_one_all_equal (x :: r) x Hin Hd y Hy).
Qed.

(* the rule of the source = the rule of the property.  For the operators and thresholds generated today only [1 <= n]
   is needed; the other hypotheses (what the four statistics of a non-empty column satisfy) are there so that the same
   script, linear arithmetic over whatever constants are generated, also closes logically equivalent spellings of the
   rule, such as a redundant test dropped. *)
Lemma keep_of_equiv : forall d m c n,
  1 <= n -> 1 <= d -> 1 <= m <= n -> c <= n -> (d <= 1 -> m = n) ->
  keep_gen_of distinct_op distinct_rhs maj_op max_maj_support nan_op nan_prop_support d m c n
  = keep_spec_of d m c n.
Proof.
  intros d m c n Hn Hd Hm Hc H1.
  unfold keep_gen_of, keep_spec_of, cmpQ, Qcompare, inject_Z.
  unfold distinct_op, distinct_rhs, maj_op, max_maj_support, nan_op, nan_prop_support.
  cbn [Qnum Qden]. rewrite Zpos_of_nat by lia.
  destruct (Nat.ltb_spec 1 d); destruct (Nat.ltb_spec (5 * m) (4 * n)); destruct (Nat.ltb_spec (4 * c) (3 * n));
    cbn [andb];
    repeat match goal with
           | |- context [(?a ?= ?b)%Z] => destruct (Z.compare_spec a b)
           end; cbn [andb]; try reflexivity; exfalso; lia.
Qed.

Lemma keep_code_spec : forall l, keep_code l = keep_spec l.
Proof.
  intros l. destruct l as [|x r]; [vm_compute; reflexivity|].
  unfold keep_code, keep_gen, keep_spec.
  change nan_literal with nan_str.
  destruct (stats_facts (x :: r)) as [F1 [F2 [F3 [F4 F5]]]]; [discriminate|].
  apply keep_of_equiv; auto.
Qed.

Lemma keep_spec_iff : forall l, keep_spec l = true <->
  1 < distinct l /\ 5 * maxcount l < 4 * length l /\ 4 * count nan_str l < 3 * length l.
Proof.
  intros. unfold keep_spec, keep_spec_of. rewrite !andb_true_iff, !Nat.ltb_lt. tauto.
Qed.

Lemma keep_code_iff : forall l, keep_code l = true <->
  1 < distinct l /\ 5 * maxcount l < 4 * length l /\ 4 * count nan_str l < 3 * length l.
Proof. intros. rewrite keep_code_spec. apply keep_spec_iff. Qed.

(* emitted names: exactly the kept transformers *)
Lemma emitted_In : forall A (sel : list (str * A)) col rendered n,
  In n (emitted sel col rendered) <->
  exists k e l, In ((k, e), l) (combine sel rendered)
                /\ (1 < distinct l /\ 5 * maxcount l < 4 * length l /\ 4 * count nan_str l < 3 * length l)
                /\ n = col ++ k.
Proof.
  intros. unfold emitted. rewrite in_map_iff. split.
  - intros [[[k e] l] [Hn Hf]]. apply filter_In in Hf. cbn [fst snd] in *. destruct Hf as [Hin Hk].
    apply keep_spec_iff in Hk. exists k, e, l. auto.
  - intros [k [e [l [Hin [Hk ->]]]]]. exists ((k, e), l). split; [reflexivity|].
    apply filter_In. split; [exact Hin|]. apply keep_spec_iff. exact Hk.
Qed.

Lemma subset_In : forall a b, subset a b = true <-> (forall x, In x a -> In x b).
Proof.
  intros. unfold subset. rewrite forallb_forall. split; intros H x Hx; [apply mem_In | apply mem_In]; auto.
Qed.

Lemma same_set_iff : forall a b, same_set a b = true <-> (forall x, In x a <-> In x b).
Proof.
  intros. unfold same_set. rewrite andb_true_iff, !subset_In. split.
  - intros [H1 H2] x. split; auto.
  - intros H. split; intros x; apply H.
Qed.

Lemma strip_idem : forall ch s, strip ch (strip ch s) = strip ch s.
Proof. intros. apply filter_all. intros c Hc. apply filter_In in Hc. apply Hc. Qed.

Lemma strip_no_char : forall ch s, ~ In ch (strip ch s).
Proof.
  intros ch s H. unfold strip in H. apply filter_In in H. destruct H as [_ H].
  rewrite N.eqb_refl in H. discriminate.
Qed.

Lemma strip_app : forall ch a b, strip ch (a ++ b) = strip ch a ++ strip ch b.
Proof. intros. unfold strip. apply filter_app. Qed.

Lemma strip_id : forall ch s, ~ In ch s -> strip ch s = s.
Proof.
  intros ch s H. apply filter_all. intros c Hc. apply negb_true_iff, N.eqb_neq. intros ->. exact (H Hc).
Qed.

Lemma parse_cell_strip : forall s, parse_cell s = parse_cell (strip strip_char s).
Proof. intros. unfold parse_cell, parse_cell_gen. rewrite strip_idem. reflexivity. Qed.

Lemma parse_cell_unfold : forall s,
  parse_cell s = match strip 34%N s with [] => Some empty_value | t => parse_float t end.
Proof. reflexivity. Qed.

Lemma oQeq_refl : forall a, oQeq a a.
Proof. intros [q|]; cbn; [apply Qeq_refl | exact I]. Qed.

(* the parse of the source (stripped character, value of the empty cell) = the parse of the property *)
Lemma parse_cell_is_spec : forall s, oQeq (parse_cell s) (parse_cell_spec s).
Proof.
  intros s. unfold parse_cell, parse_cell_spec, parse_cell_gen.
  change strip_char with 34%N.
  destruct (strip 34%N s); [|apply oQeq_refl].
  cbn [oQeq]. unfold empty_value. reflexivity.
Qed.

Lemma parse_cell_spec_empty : parse_cell_spec [] = Some 0%Q.
Proof. reflexivity. Qed.

Lemma parse_cell_only_quotes : forall s, (forall c, In c s -> c = 34%N) -> parse_cell_spec s = Some 0%Q.
Proof.
  intros s H. unfold parse_cell_spec, parse_cell_gen, strip. rewrite filter_none; [reflexivity|].
  intros c Hc. rewrite (H c Hc). reflexivity.
Qed.

(* plain digit strings denote their decimal value *)
Lemma span_digits_all : forall ds, forallb is_digit ds = true -> span_digits ds = (ds, []).
Proof.
  induction ds as [|c ds IH]; intros H; cbn [span_digits]; [reflexivity|].
  cbn [forallb] in H. apply andb_true_iff in H. destruct H as [H1 H2].
  rewrite H1, (IH H2). reflexivity.
Qed.

Lemma is_digit_range : forall c, is_digit c = true <-> (48 <= c <= 57)%N.
Proof. intros c. unfold is_digit. rewrite andb_true_iff, !N.leb_le. tauto. Qed.

(* parse_float and parse_py split off the optional sign by the same inline match; it is named here so that one lemma
   about it serves both: their proofs [fold] it over the unfolded parser *)
Definition sign_split (s : str) : bool * str :=
  match s with 45%N :: r => (true, r) | 43%N :: r => (false, r) | _ => (false, s) end.

Lemma sign_split_digit : forall c r, is_digit c = true -> sign_split (c :: r) = (false, c :: r).
Proof.
  intros c r H. apply is_digit_range in H. destruct c as [|p]; [reflexivity|].
  (* down to the bits of '-' = 45 and '+' = 43, which are not digits *)
  do 6 (destruct p as [p|p|]; try reflexivity); lia.
Qed.

Lemma parse_float_digits : forall c ds, forallb is_digit (c :: ds) = true ->
  parse_float (c :: ds) = Some (inject_Z (digits_val 0 (c :: ds))).
Proof.
  intros c ds H. unfold parse_float.
  assert (Hc : is_digit c = true) by (cbn [forallb] in H; apply andb_true_iff in H; tauto).
  fold (sign_split (c :: ds)). rewrite (sign_split_digit c ds Hc), (span_digits_all _ H).
  cbn [is_nil andb exponent app length Z.of_nat Z.sub Z.leb Z.compare Z.opp].
  rewrite app_nil_r. cbn [Z.pow Z.pow_pos Pos.iter Z.mul]. rewrite Z.mul_1_r. reflexivity.
Qed.

Lemma check_sound : forall c o, C12_check c o = true -> forall n, In n o <-> In n (C12_model c).
Proof. intros c o H. apply same_set_iff. exact H. Qed.

Lemma model_emitted : forall preset col rendered sel, select preset = Some sel ->
  forall n, In n (C12_model (preset, col, rendered)) <->
            exists k e l, In ((k, e), l) (combine sel rendered)
                          /\ (1 < distinct l /\ 5 * maxcount l < 4 * length l /\ 4 * count nan_str l < 3 * length l)%nat
                          /\ n = col ++ k.
Proof. intros preset col rendered sel Hs n. unfold C12_model. rewrite Hs. apply emitted_In. Qed.

Lemma select_registered : forall s tabs,
  Forall2 (fun ns t => lookup ns registry = Some t /\ t <> []) (split_on preset_separator s) tabs ->
  select s = Some (union tabs)
  /\ (forall k, lookup k (union tabs) = lookup_last k tabs)
  /\ (forall k, In k (names (union tabs)) <-> exists t, In t tabs /\ In k (names t)).
Proof.
  intros s tabs H. split; [apply select_valid; exact H|]. split; intros k; [apply lookup_union | apply names_union].
Qed.

Lemma parse_cell_code_spec : forall s, pres_eq (parse_cell_code s) (parse_cell3 s).
Proof.
  intros s. unfold parse_cell_code, parse_cell3. change strip_char with 34%N.
  destruct (strip 34%N s) as [|c r].
  - cbn. split; reflexivity.
  - destruct (parse_py (c :: r)); cbn; auto. split; [apply Qeq_refl | reflexivity].
Qed.

(* every modelled preset is a key of the vault's registry (the other keys are not modelled) *)
Lemma registry_subset : forallb (fun n => mem n vault_registry_keys) (names registry) = true.
Proof. vm_compute. reflexivity. Qed.

Local Open Scope R_scope.

Lemma Rltb_true : forall a b, a < b -> Rltb a b = true.
Proof. intros. unfold Rltb. destruct (Rlt_dec a b); [reflexivity | contradiction]. Qed.
Lemma Rltb_false : forall a b, b <= a -> Rltb a b = false.
Proof. intros. unfold Rltb. destruct (Rlt_dec a b); [lra | reflexivity]. Qed.
Lemma Reqb_true : forall a b, a = b -> Reqb a b = true.
Proof. intros. unfold Reqb. destruct (Req_EM_T a b); [reflexivity | contradiction]. Qed.
Lemma Reqb_false : forall a b, a <> b -> Reqb a b = false.
Proof. intros. unfold Reqb. destruct (Req_EM_T a b); [contradiction | reflexivity]. Qed.

Lemma Rltb_cases : forall a b, (a < b /\ Rltb a b = true) \/ (b <= a /\ Rltb a b = false).
Proof. intros. destruct (Rlt_le_dec a b); [left | right]; split; auto using Rltb_true, Rltb_false. Qed.
Lemma Reqb_cases : forall a b, (a = b /\ Reqb a b = true) \/ (a <> b /\ Reqb a b = false).
Proof. intros. destruct (Req_EM_T a b); [left | right]; split; auto using Reqb_true, Reqb_false. Qed.

Lemma Q2R_int : forall z, Q2R (z # 1) = IZR z.
Proof. intros. unfold Q2R. cbn [Qnum Qden]. rewrite Rinv_1, Rmult_1_r. reflexivity. Qed.

Lemma Q2R_inject_Z : forall z, Q2R (inject_Z z) = IZR z.
Proof. intros. apply Q2R_int. Qed.

Lemma Q2R_0 : Q2R 0 = 0.
Proof. exact (Q2R_int 0). Qed.
Lemma Q2R_1 : Q2R 1 = 1.
Proof. exact (Q2R_int 1). Qed.

Lemma rhe_spec : forall r,
  Rabs (r - IZR (rhe r)) <= 1 / 2 /\ (Rabs (r - IZR (rhe r)) = 1 / 2 -> Z.even (rhe r) = true).
Proof.
  intros r. unfold rhe.
  destruct (base_Int_part r) as [H1 H2].
  set (f := Int_part r) in *.
  destruct (Rlt_dec (r - IZR f) (1 / 2)) as [A|A].
  - split.
    + rewrite Rabs_right by lra. lra.
    + rewrite Rabs_right by lra. lra.
  - destruct (Rlt_dec (1 / 2) (r - IZR f)) as [B|B].
    + rewrite plus_IZR. split.
      * rewrite Rabs_left by lra. lra.
      * rewrite Rabs_left by lra. lra.
    + assert (E : r - IZR f = 1 / 2) by lra.
      destruct (Z.even f) eqn:Ev.
      * split; [rewrite Rabs_right by lra; lra | intros _; exact Ev].
      * split.
        -- rewrite plus_IZR. rewrite Rabs_left by lra. lra.
        -- intros _. replace (f + 1)%Z with (Z.succ f) by lia.
           rewrite Z.even_succ. rewrite <- Z.negb_even, Ev. reflexivity.
Qed.

Lemma Int_part_unique : forall r z, IZR z <= r < IZR z + 1 -> Int_part r = z.
Proof.
  intros r z [H1 H2]. unfold Int_part.
  assert (E : (z + 1)%Z = up r) by (apply up_tech; [exact H1 | rewrite plus_IZR; exact H2]).
  rewrite <- E. lia.
Qed.

Lemma Int_part_IZR : forall z, Int_part (IZR z) = z.
Proof. intros z. apply Int_part_unique. lra. Qed.

Lemma rhe_IZR : forall z, rhe (IZR z) = z.
Proof.
  intros z. unfold rhe. rewrite Int_part_IZR.
  destruct (Rlt_dec (IZR z - IZR z) (1 / 2)); [reflexivity | exfalso; lra].
Qed.

(* the nearest integer is unique when it is strictly nearer than one half *)
Lemma rhe_nearest : forall r z, Rabs (r - IZR z) < 1 / 2 -> rhe r = z.
Proof.
  intros r z H. destruct (rhe_spec r) as [S _].
  apply Rabs_def2 in H. destruct H as [Ha Hb].
  assert (S1 : -(1/2) <= r - IZR (rhe r) <= 1/2).
  { split; [|apply Rle_trans with (2 := S); apply Rle_abs].
    apply Ropp_le_cancel. rewrite Ropp_involutive. apply Rle_trans with (2 := S).
    rewrite <- Rabs_Ropp. apply Rle_abs. }
  assert (D : -1 < IZR (rhe r) - IZR z < 1) by lra.
  rewrite <- minus_IZR in D. destruct D as [D1 D2].
  apply lt_IZR in D1. apply lt_IZR in D2. lia.
Qed.

Lemma rnd_0 : forall v, rnd 0 v = IZR (rhe v).
Proof.
  intros. unfold rnd. cbn [pow]. rewrite Rmult_1_r. unfold Rdiv. rewrite Rinv_1, Rmult_1_r. reflexivity.
Qed.

Lemma fold_Rmax_ge : forall ys y, y <= fold_left Rmax ys y /\ (forall z, In z ys -> z <= fold_left Rmax ys y).
Proof.
  induction ys as [|a ys IH]; intros y; cbn [fold_left].
  - split; [lra | intros z []].
  - destruct (IH (Rmax y a)) as [H1 H2]. split.
    + apply Rle_trans with (2 := H1). apply Rmax_l.
    + intros z [->|Hz]; [apply Rle_trans with (2 := H1); apply Rmax_r | apply H2; exact Hz].
Qed.

Lemma fold_Rmax_in : forall ys y, fold_left Rmax ys y = y \/ In (fold_left Rmax ys y) ys.
Proof.
  induction ys as [|a ys IH]; intros y; cbn [fold_left]; [left; reflexivity|].
  destruct (IH (Rmax y a)) as [H|H].
  - rewrite H. unfold Rmax. destruct (Rle_dec y a); [right; left; reflexivity | left; reflexivity].
  - right. right. exact H.
Qed.

Lemma list_max_spec : forall xs m, list_max xs = Some m -> In m xs /\ (forall z, In z xs -> z <= m).
Proof.
  intros [|y ys] m H; [discriminate|]. cbn [list_max] in H. injection H as <-.
  destruct (fold_Rmax_ge ys y) as [H1 H2]. split.
  - destruct (fold_Rmax_in ys y) as [E|E]; [rewrite E; left; reflexivity | right; exact E].
  - intros z [<-|Hz]; [exact H1 | apply H2; exact Hz].
Qed.

(* literals equal as rationals denote the same formula *)
Lemma cmp_eqb_eq : forall a b, cmp_eqb a b = true -> a = b.
Proof. destruct a, b; cbn; congruence. Qed.

Lemma expr_eqb_den : forall a b, expr_eqb a b = true -> forall xs x, den a xs x = den b xs x.
Proof.
  induction a; destruct b; cbn [expr_eqb]; intros H xs x; try discriminate H; try reflexivity; cbn [den].
  1: { f_equal. apply Qeq_eqR, Qeq_bool_eq, H. }
  (* two operands, one operand, one operand and a number, np.where *)
  1-4: (apply andb_true_iff in H; destruct H as [H1 H2]; rewrite (IHa1 _ H1 xs x), (IHa2 _ H2 xs x); reflexivity).
  1-4: (rewrite (IHa _ H xs x); reflexivity).
  1-2: (apply andb_true_iff in H; destruct H as [H1 H2]; apply Nat.eqb_eq in H2; subst; rewrite (IHa _ H1 xs x);
        reflexivity).
  rewrite !andb_true_iff in H. destruct H as [[[[Hc H1] H2] H3] H4]. apply cmp_eqb_eq in Hc. subst.
  rewrite (IHa1 _ H1 xs x), (IHa2 _ H2 xs x), (IHa3 _ H3 xs x), (IHa4 _ H4 xs x). reflexivity.
Qed.

(* conditions of np.where in the presets never involve a non-finite operand *)
Lemma total_den : forall e, total_expr e = true -> forall xs x, exists v, den e xs x = Some v.
Proof.
  induction e; cbn [total_expr]; intros H xs x; try discriminate H; cbn [den].
  1-2: (eexists; reflexivity).
  1-3: (apply andb_true_iff in H; destruct H as [H1 H2];
        destruct (IHe1 H1 xs x) as [u ->]; destruct (IHe2 H2 xs x) as [v ->]; eexists; reflexivity).
  all: destruct (IHe H xs x) as [u ->]; eexists; reflexivity.
Qed.

Lemma fw_body_den : forall b res thr xs x,
  den (fw_body b res thr) xs x = Some (fw_fun b (Q2R res) (Q2R thr) x).
Proof.
  intros b res thr xs x. unfold fw_body, fw_fun. cbn [den cmpR].
  destruct (Rltb_cases x (Q2R thr)) as [[A ->]|[A ->]]; [reflexivity|].
  destruct (Rltb_cases (Q2R thr) x) as [[B ->]|[B ->]].
  - destruct b; cbn [den olift1 olift2].
    + rewrite (Rltb_false (x - Q2R thr) 0) by lra. cbn [olift1 olift2]. rewrite rnd_0. reflexivity.
    + rewrite (Rltb_true 0 (x - Q2R thr)) by lra. cbn [olift1 olift2]. rewrite rnd_0. reflexivity.
  - f_equal. unfold Q2R. cbn [Qnum Qden]. lra.
Qed.

Lemma fw_thr_R : forall k gt,
  Q2R (fw_thr k gt) = if fw_is_prob k then IZR (Z.of_N gt) / 100 else IZR (Z.of_N gt).
Proof.
  intros. unfold fw_thr. destruct (fw_is_prob k); [reflexivity | apply Q2R_inject_Z].
Qed.

(* the function named by (kind, resolution, threshold), in terms of the two numbers only *)
Definition fw_named_fun (k : fwkind) (res gt : N) : R -> R :=
  fw_fun (fw_is_sqrt k) (IZR (Z.of_N res))
         (if fw_is_prob k then IZR (Z.of_N gt) / 100 else IZR (Z.of_N gt)).

Lemma fw_expr_den : forall k res gt xs x, den (fw_expr k res gt) xs x = Some (fw_named_fun k res gt x).
Proof.
  intros. unfold fw_expr, fw_named_fun. rewrite fw_body_den, Q2R_inject_Z, fw_thr_R. reflexivity.
Qed.

(* Table names share the prefix "_tr_" (those of the fw preset "_tr_fw_sqrt_res_" and the like) and differ near their
   ends, and [str_eqb] stops at the first difference: the evaluated table checks below compare reversed names, which is
   several times cheaper where the evaluation is lazy (coqchk). *)
Lemma str_eqb_rev : forall a b, str_eqb (rev a) (rev b) = str_eqb a b.
Proof.
  intros a b. destruct (str_eqb a b) eqn:E.
  - apply str_eqb_eq in E. subst. apply str_eqb_refl.
  - apply str_eqb_neq. apply str_eqb_neq in E. intros H. apply E.
    rewrite <- (rev_involutive a), H. apply rev_involutive.
Qed.

Definition rev_names {A} (t : list (str * A)) : list (str * A) := map (fun kv => (rev (fst kv), snd kv)) t.

Lemma lookup_rev_names : forall A n (t : list (str * A)), lookup (rev n) (rev_names t) = lookup n t.
Proof.
  induction t as [|[k v] t IH]; cbn [rev_names map lookup fst snd]; [reflexivity|].
  rewrite str_eqb_rev. fold (rev_names t). rewrite IH. reflexivity.
Qed.

(* One table within another: every name of [a] is bound in [b], to a formula that differs at most in how its
   literals are written.  Decided on the reversed names. *)
Definition entry_in (t : list (str * expr)) (kv : str * expr) : bool :=
  match lookup (fst kv) t with Some e => expr_eqb e (snd kv) | None => false end.

Definition sub_table (a b : list (str * expr)) : bool := forallb (entry_in (rev_names b)) (rev_names a).

Lemma sub_table_sound : forall a b, sub_table a b = true ->
  forall n e, In (n, e) a -> exists e', lookup n b = Some e' /\ expr_eqb e' e = true.
Proof.
  intros a b H n e Hin. unfold sub_table in H. rewrite forallb_forall in H.
  assert (Hr : In (rev n, e) (rev_names a)) by exact (in_map (fun kv => (rev (fst kv), snd kv)) a (n, e) Hin).
  specialize (H _ Hr). unfold entry_in in H. cbn [fst snd] in H. rewrite lookup_rev_names in H.
  destruct (lookup n b) as [e'|]; [|discriminate]. exists e'. auto.
Qed.

Lemma sub_table_den : forall a b, sub_table a b = true ->
  forall n e, In (n, e) a -> exists e', lookup n b = Some e' /\ forall xs x, den e' xs x = den e xs x.
Proof.
  intros a b H n e Hin. destruct (sub_table_sound a b H n e Hin) as [e' [L E]].
  exists e'. split; [exact L|]. intros. apply expr_eqb_den. exact E.
Qed.

(* the entries the loops of fw_transformers.py generate over the two grids *)
Definition fw_grid (rs gts : list N) : list (str * expr) :=
  flat_map (fun k => flat_map (fun res => map (fun gt => (fw_name k res gt, fw_expr k res gt)) gts) rs) fw_kinds.

Lemma fw_grid_In : forall rs gts n e, In (n, e) (fw_grid rs gts) <->
  exists k res gt, In res rs /\ In gt gts /\ n = fw_name k res gt /\ e = fw_expr k res gt.
Proof.
  intros rs gts n e. unfold fw_grid. rewrite in_flat_map. split.
  - intros [k [_ H]]. apply in_flat_map in H. destruct H as [res [Hr H]].
    apply in_map_iff in H. destruct H as [gt [E Hg]].
    injection E as <- <-. exists k, res, gt. auto.
  - intros [k [res [gt [Hr [Hg [-> ->]]]]]]. exists k. split; [destruct k; cbn; tauto|].
    apply in_flat_map. exists res. split; [exact Hr|].
    apply (in_map (fun gt => (fw_name k res gt, fw_expr k res gt))). exact Hg.
Qed.

(* the fw preset is the default preset together with the generated grid, and nothing else *)
Lemma fw_table_complete :
  sub_table (default_table ++ fw_grid resolution_range greater_than_range) fw_table = true.
Proof. vm_compute. reflexivity. Qed.

Lemma fw_table_closed :
  sub_table fw_table (default_table ++ fw_grid resolution_range greater_than_range) = true.
Proof. vm_compute. reflexivity. Qed.

Lemma minimal_in_default : sub_table minimal_table default_table = true.
Proof. vm_compute. reflexivity. Qed.

Lemma fw_family : forall k res gt,
  In res resolution_range -> In gt greater_than_range ->
  exists e, lookup (fw_name k res gt) fw_table = Some e
            /\ expr_eqb e (fw_expr k res gt) = true
            /\ forall xs x, den e xs x = Some (fw_named_fun k res gt x).
Proof.
  intros k res gt Hr Hg.
  destruct (sub_table_sound _ _ fw_table_complete (fw_name k res gt) (fw_expr k res gt)) as [e [L E]].
  { apply in_or_app. right. apply fw_grid_In. exists k, res, gt. auto. }
  exists e. split; [exact L|]. split; [exact E|].
  intros xs x. rewrite (expr_eqb_den _ _ E). apply fw_expr_den.
Qed.

Lemma fw_closed : forall n e, In (n, e) fw_table ->
  (exists e', lookup n default_table = Some e' /\ expr_eqb e' e = true)
  \/ (exists k res gt, In res resolution_range /\ In gt greater_than_range
                       /\ n = fw_name k res gt /\ expr_eqb (fw_expr k res gt) e = true).
Proof.
  intros n e H. destruct (sub_table_sound _ _ fw_table_closed n e H) as [e' [L E]].
  rewrite lookup_app in L. destruct (lookup n default_table) as [d|].
  - left. injection L as ->. exists e'. auto.
  - right. apply lookup_In, fw_grid_In in L.
    destruct L as [k [res [gt [Hr [Hg [-> ->]]]]]]. exists k, res, gt. auto.
Qed.

Lemma presets_nested :
  (forall n e, In (n, e) minimal_table ->
     exists e', lookup n default_table = Some e' /\ forall xs x, den e' xs x = den e xs x)
  /\ (forall n e, In (n, e) default_table ->
     exists e', lookup n fw_table = Some e' /\ forall xs x, den e' xs x = den e xs x).
Proof.
  split.
  - apply sub_table_den. exact minimal_in_default.
  - intros n e H. apply (sub_table_den _ _ fw_table_complete). apply in_or_app. left. exact H.
Qed.

Fixpoint nodupb (l : list str) : bool :=
  match l with [] => true | x :: r => negb (mem x r) && nodupb r end.

Lemma nodupb_NoDup : forall l, nodupb l = true -> NoDup l.
Proof. intros l. apply (nodupb_iff_of mem nodupb mem_In); reflexivity. Qed.

Lemma sizes :
  length minimal_table = 4%nat /\ length default_table = 10%nat /\ length fw_table = 138%nat
  /\ NoDup (names minimal_table) /\ NoDup (names default_table) /\ NoDup (names fw_table).
Proof.
  split; [reflexivity|]. split; [reflexivity|]. split; [reflexivity|].
  (* distinct reversed names, as for sub_table *)
  split; [|split]; apply (NoDup_map_inv (@rev N)), nodupb_NoDup; vm_compute; reflexivity.
Qed.

Lemma conds_simple : forallb (fun kv => simple_conds (snd kv)) fw_table = true.
Proof. vm_compute. reflexivity. Qed.

Lemma arcsinh_arg_pos : forall x, 0 < x + sqrt (x ^ 2 + 1).
Proof.
  intros x. assert (P : 0 < x ^ 2 + 1) by (pose proof (pow2_ge_0 x); lra).
  pose proof (sqrt_lt_R0 _ P) as S.
  destruct (Rle_lt_dec 0 x) as [H|H]; [lra|].
  assert (L : sqrt ((- x) ^ 2) < sqrt (x ^ 2 + 1)).
  { apply sqrt_lt_1_alt. split; [apply pow2_ge_0|]. replace ((- x) ^ 2) with (x ^ 2) by ring. lra. }
  rewrite sqrt_pow2 in L by lra. lra.
Qed.

(* one case per pair of [readings], in the order of the list *)
Lemma named_readings : forall n rd, In (n, rd) readings ->
  exists e, lookup n default_table = Some e /\ forall xs x, den e xs x = rd xs x.
Proof.
  intros n rd H. cbn [readings In] in H.
  destruct H as [H|[H|[H|[H|[H|[H|[H|[H|[H|[H|[]]]]]]]]]]]; injection H as <- <-;
    (eexists; split; [reflexivity|]); intros xs x; cbn [den olift1 olift2 cmpR]; rewrite ?Q2R_int.
  - reflexivity.
  - unfold rd_log_x1. destruct (Rltb_cases (-1) x) as [[A ->]|[A ->]].
    + rewrite Rltb_true by lra. reflexivity.
    + rewrite Rltb_false by lra. reflexivity.
  - unfold rd_sqrt_abs. rewrite Rltb_false by apply Rabs_pos. reflexivity.
  - unfold rd_log_abs1. rewrite Rltb_true by (pose proof (Rabs_pos x); lra). reflexivity.
  - unfold rd_sign_log. destruct (Reqb_cases x 0) as [[A ->]|[A ->]].
    + subst x. rewrite Rabs_R0. rewrite Reqb_true by reflexivity. reflexivity.
    + destruct (Rltb_cases 0 x) as [[B ->]|[B ->]].
      * rewrite (Rabs_right x) by lra.
        rewrite Reqb_false by lra. rewrite Rltb_true by lra. cbn [olift2]. f_equal. field. lra.
      * rewrite (Rabs_left x) by lra.
        rewrite Reqb_false by lra. rewrite Rltb_true by lra. cbn [olift2]. f_equal. field. lra.
  - unfold rd_arcsinh, arcsinh.
    rewrite Rltb_false by (pose proof (pow2_ge_0 x); lra). cbn [olift2].
    rewrite Rltb_true by apply arcsinh_arg_pos. reflexivity.
  - unfold rd_log_sqrt. destruct (Rltb_cases x 0) as [[A ->]|[A ->]].
    + destruct (Rltb 0 (x + 1)); reflexivity.
    + rewrite Rltb_true by lra. reflexivity.
  - unfold rd_log100. destruct (Rltb_cases (-1) x) as [[A ->]|[A ->]].
    + rewrite Rltb_true by lra. cbn [olift1 olift2]. rewrite rnd_0. reflexivity.
    + rewrite Rltb_false by lra. reflexivity.
  - unfold rd_nonzero. destruct (Reqb_cases x 0) as [[A ->]|[A ->]]; reflexivity.
  - unfold rd_round_div_max. destruct (list_max xs) as [m|]; [|reflexivity].
    destruct (Reqb m 0); cbn [olift1]; [reflexivity|]. rewrite rnd_0. reflexivity.
Qed.

Lemma named_reading : forall i n rd, nth_error readings i = Some (n, rd) ->
  exists e, lookup n default_table = Some e /\ forall xs x, den e xs x = rd xs x.
Proof. intros i n rd H. apply named_readings. exact (nth_error_In _ _ H). Qed.

(* all ten names of the default preset have a reading *)
Lemma readings_cover : forallb (fun n => mem n (map fst readings)) (names default_table) = true
                       /\ length readings = length default_table.
Proof. split; vm_compute; reflexivity. Qed.

(* concrete instances: the hypotheses above can be met, and the model computes what the source does *)
Example fw_values : fw_named_fun Ksqrt 1 1 5 = 2 /\ fw_named_fun Ksqrt 1 1 1 = 0 /\ fw_named_fun Ksqrt 1 1 (1/2) = 1/2.
Proof.
  unfold fw_named_fun, fw_fun. cbn [fw_is_sqrt fw_is_prob Z.of_N]. repeat split.
  - rewrite (Rltb_false 5 1) by lra. rewrite (Rltb_true 1 5) by lra.
    replace (5 - 1) with (2 * 2) by ring. rewrite sqrt_square by lra.
    replace (2 * 1) with (IZR 2) by (simpl; ring). rewrite rhe_IZR. reflexivity.
  - rewrite Rltb_false by lra. reflexivity.
  - rewrite Rltb_true by lra. reflexivity.
Qed.

Local Close Scope R_scope.

Example select_default_minimal :
  option_map names (select (s2l "default,minimal")) = Some (names default_table)
  /\ option_map names (select (s2l "minimal,default")) = Some (names default_table)
  /\ option_map (fun t => length t) (select (s2l "fw-transformers,minimal")) = Some 138%nat
  /\ select (s2l "minimal,no-such-preset") = Some minimal_table
  /\ select (s2l "no-such-preset,minimal") = None.   (* the error is raised inside the loop *)
Proof. repeat apply conj; vm_compute; reflexivity. Qed.

Example select_hypothesis_satisfiable :
  Forall2 (fun ns t => lookup ns registry = Some t /\ t <> [])
          (split_on preset_separator (s2l "default,minimal")) [default_table; minimal_table].
Proof.
  assert (E : split_on preset_separator (s2l "default,minimal") = [s2l "default"; s2l "minimal"])
    by (vm_compute; reflexivity).
  rewrite E. repeat constructor; try (vm_compute; reflexivity); discriminate.
Qed.

Example keep_boundaries :
  let col (a b : nat) := repeat (s2l "1.0") a ++ repeat (s2l "2.0") b in
  keep_code (col 8 2) = false            (* exactly 80 % *)
  /\ keep_code (col 79 21) = true        (* 79 % *)
  /\ keep_code (repeat nan_str 3 ++ [s2l "1.0"]) = false                   (* exactly 75 % nan *)
  /\ keep_code (repeat nan_str 74 ++ repeat (s2l "1.0") 13 ++ repeat (s2l "2.0") 13) = true
  /\ keep_code (repeat (s2l "1.0") 5) = false.                            (* constant *)
Proof. cbv zeta. repeat apply conj; vm_compute; reflexivity. Qed.

Example parse_examples :
  parse_cell_spec [] = Some 0%Q
  /\ parse_cell (s2l """12.5""") = Some (125 # 10)%Q
  /\ parse_cell (s2l "-3e2") = Some (-300 # 1)%Q
  /\ parse_cell_spec (s2l """""") = Some 0%Q
  /\ parse_cell (s2l "1e-2") = Some (1 # 100)%Q
  /\ parse_cell (s2l "abc") = None.
Proof. repeat apply conj; vm_compute; reflexivity. Qed.

Example fw_example :   (* the entry the repo's test looks at: _tr_fw_sqrt_res_1_gt_1 *)
  fw_name Ksqrt 1 1 = s2l "_tr_fw_sqrt_res_1_gt_1"
  /\ fw_name Kplog 100 96 = s2l "_tr_fw_prob_log_res_100_gt_0.96"
  /\ In 1%N resolution_range /\ In 96%N greater_than_range.
Proof. repeat split; vm_compute; auto 10. Qed.
