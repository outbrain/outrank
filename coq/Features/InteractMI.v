(* C10 — "hence its score equals the score of the explicit value tuple", instantiated for the MI family:
   the numba estimator transcribed in MI/Model.v ([core], both values of the cardinality-correction flag) gives the coded
   interaction column the score it gives the coded value-tuple column.  Uses MI/Proofs.core_relabel_X (C02) read-only;
   this file depends on the Reals library (the four standard axioms), the rest of C10 does not. *)
From Coq Require Import List Reals.
From Outrank Require Import Features.Interact Features.InteractProofs.
From Outrank Require MI.Proofs.
Import ListNotations.

Section ScoreMI.
  Variable h : str -> cell.

  (* core_relabel_X relabels one coded column by a function on codes.  The two columns here code different carriers
     (hash cells, value tuples), so the interaction code is written as a function of the tuple code: decode the tuple
     through the finite list of occurring tuples, then code its hash cell. *)
  Definition recode (cH : cell -> Z) (cT : list cell -> Z) (l : list (list cell)) (z : Z) : Z :=
    match find (fun t => Z.eqb (cT t) z) l with
    | Some t => cH (h (enc t))
    | None => 0%Z
    end.

  Lemma recode_spec cH cT l t : inj_on cT l -> In t l -> recode cH cT l (cT t) = cH (h (enc t)).
  Proof.
    intros Hinj Hin. unfold recode. destruct (find _ l) as [t'|] eqn:E.
    - apply find_some in E. destruct E as [Hin' Eq]. apply Z.eqb_eq in Eq.
      rewrite (Hinj t' t Hin' Hin Eq). reflexivity.
    - exfalso. apply (find_none _ _ E t) in Hin. rewrite Z.eqb_refl in Hin. discriminate.
  Qed.

  Theorem score_MI (cH : cell -> Z) (cT : list cell -> Z) df comb (T : list Z) (c : bool) :
    no_collision h df comb ->
    length T = nrows df -> 0 < nrows df ->
    inj_on cH (feature_values h df comb) -> inj_on cT (tuples df comb) ->
    MI.Model.eval_R (MI.Model.core T (map cH (feature_values h df comb)) c)
    = MI.Model.eval_R (MI.Model.core T (map cT (tuples df comb)) c).
  Proof.
    intros Hnc HT Hn HcH HcT.
    set (l := tuples df comb).
    assert (Hmap : map cH (feature_values h df comb) = map (recode cH cT l) (map cT l)).
    { unfold feature_values. fold l. rewrite !map_map. apply map_ext_in. intros t Ht.
      symmetry. apply recode_spec; assumption. }
    rewrite Hmap. apply MI.Proofs.core_relabel_X.
    - rewrite map_length. unfold l. rewrite tuples_length. exact HT.
    - rewrite map_length. unfold l. rewrite tuples_length. exact Hn.
    - intros a b Ha Hb E. apply in_map_iff in Ha. apply in_map_iff in Hb.
      destruct Ha as [ta [<- Hta]]. destruct Hb as [tb [<- Htb]].
      rewrite !recode_spec in E by assumption.
      f_equal. apply (tuple_code_inj h cH df comb Hnc HcH); assumption.
  Qed.

End ScoreMI.
