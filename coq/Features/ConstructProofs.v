From Coq Require Import List ZArith Bool.
From Outrank Require Import Features.Interact Features.InteractProofs Features.Construct.
From Outrank Require Common.Split.
Import ListNotations.

Lemma getcol_in df f : In f (names df) -> In (f, getcol df f) df.
Proof.
  induction df as [|[k v] df IH]; cbn; [intros []|]. intros H.
  destruct (streqb f k) eqn:E.
  - apply streqb_spec in E. subst. left. reflexivity.
  - right. apply IH. destruct H as [H|H]; [|exact H]. subst. rewrite streqb_refl in E. discriminate.
Qed.

Lemma has_col_in df f : has_col df f = true <-> In f (names df).
Proof. apply memb_spec. Qed.

Lemma getcol_length df f : wf df -> has_col df f = true -> length (getcol df f) = nrows df.
Proof.
  intros Hw H. apply has_col_in, getcol_in in H. unfold wf in Hw. rewrite Forall_forall in Hw.
  apply (Hw _ H).
Qed.

Lemma uniq_in l : forall x, In x (uniq l) <-> In x l.
Proof.
  induction l as [|y l IH]; intros x; cbn; [tauto|].
  rewrite filter_In, IH. split.
  - intros [H|[H _]]; auto.
  - intros [H|H]; [left; exact H|]. destruct (streqb y x) eqn:E.
    + left. apply streqb_spec, E.
    + right. split; [exact H | reflexivity].
Qed.

Lemma uniq_nodup l : NoDup (uniq l).
Proof.
  induction l as [|y l IH]; cbn; constructor.
  - intros H. apply filter_In in H. destruct H as [_ H]. rewrite streqb_refl in H. discriminate.
  - apply NoDup_filter, IH.
Qed.

(* the tokens of a multi-value cell: the maximal pieces free of '-' after turning ',' into '-' *)
Lemma tokens_spec v :
  join1 DASH (tokens v) = map (fun c => if N.eqb c COMMA then DASH else c) v /\
  forall t, In t (tokens v) -> ~ In DASH t.
Proof. split; [apply Split.join_split | apply Split.split_on_nodelim]. Qed.

(* dict: the value under a name is the last one written *)
Fixpoint dict_get {V} (d : list (str * V)) (k : str) : option V :=
  match d with
  | [] => None
  | (k', v) :: r => if streqb k k' then Some v else dict_get r k
  end.
Fixpoint assoc_last {V} (l : list (str * V)) (k : str) : option V :=
  match l with
  | [] => None
  | (k', v) :: r => match assoc_last r k with Some w => Some w | None => if streqb k k' then Some v else None end
  end.

Lemma dict_get_set {V} (d : list (str * V)) k v x :
  dict_get (dict_set d k v) x = if streqb x k then Some v else dict_get d x.
Proof.
  induction d as [|[k' v'] d IH]; cbn.
  - reflexivity.
  - destruct (streqb k k') eqn:E; cbn.
    + apply streqb_spec in E. subst k'. destruct (streqb x k); reflexivity.
    + rewrite IH. destruct (streqb x k') eqn:E2; [|reflexivity].
      apply streqb_spec in E2. subst x. destruct (streqb k' k) eqn:E3; [|reflexivity].
      apply streqb_spec in E3. subst. rewrite streqb_refl in E. discriminate.
Qed.

Lemma dict_fold_get {V} (l : list (str * V)) : forall d x,
  dict_get (fold_left (fun d kv => dict_set d (fst kv) (snd kv)) l d) x =
  match assoc_last l x with Some w => Some w | None => dict_get d x end.
Proof.
  induction l as [|[k v] l IH]; cbn; intros d x; [reflexivity|].
  rewrite IH, dict_get_set. destruct (assoc_last l x); [reflexivity|]. destruct (streqb x k); reflexivity.
Qed.
Lemma dict_of_get {V} (l : list (str * V)) x : dict_get (dict_of l) x = assoc_last l x.
Proof. unfold dict_of. rewrite dict_fold_get. destruct (assoc_last l x); reflexivity. Qed.

Lemma dict_get_in {V} (d : list (str * V)) k v : NoDup (map fst d) -> (dict_get d k = Some v <-> In (k, v) d).
Proof.
  induction d as [|[k' v'] d IH]; cbn; intros Hn; [split; [discriminate | intros []]|].
  inversion Hn as [|? ? Hnot Hd]; subst. destruct (streqb k k') eqn:E.
  - apply streqb_spec in E. subst k'. split.
    + intros H. inversion H. left. reflexivity.
    + intros [H|H]; [inversion H; reflexivity|]. exfalso. apply Hnot. apply in_map_iff. exists (k, v). auto.
  - rewrite (IH Hd). split; [intros H; right; exact H|]. intros [H|H]; [|exact H].
    inversion H; subst. rewrite streqb_refl in E. discriminate.
Qed.

Lemma dash_split f : forall f' t t', ~ In DASH t -> ~ In DASH t' -> f ++ DASH :: t = f' ++ DASH :: t' -> f = f' /\ t = t'.
Proof.
  induction f as [|c f IH]; intros [|c' f'] t t' Ht Ht' E; cbn in E.
  - inversion E. auto.
  - inversion E; subst. exfalso. apply Ht. apply in_or_app. right. left. reflexivity.
  - inversion E; subst. exfalso. apply Ht'. apply in_or_app. right. left. reflexivity.
  - inversion E; subst. destruct (IH f' t t' Ht Ht' H1) as [-> ->]. auto.
Qed.

Lemma mv_name_inj f f' t t' : ~ In DASH t -> ~ In DASH t' -> mv_name f t = mv_name f' t' -> f = f' /\ t = t'.
Proof. unfold mv_name. intros Ht Ht' E. apply app_inv_head in E. apply dash_split; assumption. Qed.

Lemma sinsert_in x l y : In y (sinsert x l) <-> y = x \/ In y l.
Proof.
  induction l as [|z l IH]; cbn.
  - split; [intros [H|[]]; left; symmetry; exact H | intros [H|[]]; left; symmetry; exact H].
  - destruct (str_ltb z x); cbn; [rewrite IH|]; split; intros H; intuition congruence.
Qed.
Lemma sort_str_in l y : In y (sort_str l) <-> In y l.
Proof.
  induction l as [|x l IH]; cbn; [tauto|]. rewrite sinsert_in, IH. split; intros [H|H]; auto.
Qed.

Lemma mv_tokens_in missing vec t :
  In t (mv_tokens missing vec) <-> (~ In t missing /\ exists v, In v vec /\ In t (tokens v)).
Proof.
  unfold mv_tokens. rewrite filter_In, sort_str_in, uniq_in, in_flat_map, negb_true_iff. split.
  - intros [H Hm]. split; [|exact H]. intros Hin. apply memb_spec in Hin. congruence.
  - intros [Hm H]. split; [exact H|]. destruct (memb t missing) eqn:E; [apply memb_spec in E; contradiction | reflexivity].
Qed.

Lemma mv_tokens_nodash missing vec t : In t (mv_tokens missing vec) -> ~ In DASH t.
Proof. intros H. apply mv_tokens_in in H. destruct H as [_ [v [_ Ht]]]. eapply tokens_spec, Ht. Qed.

Lemma mv_all_in df missing feats k col :
  In (k, col) (flat_map (mv_feature df missing) feats) <->
  exists f t, In f feats /\ In t (mv_tokens missing (getcol df f)) /\ k = mv_name f t /\ col = mv_column (getcol df f) t.
Proof.
  rewrite in_flat_map. unfold mv_feature. split.
  - intros [f [Hf H]]. apply in_map_iff in H. destruct H as [t [E Ht]]. inversion E; subst. exists f, t. auto.
  - intros [f [t [Hf [Ht [-> ->]]]]]. exists f. split; [exact Hf|]. apply in_map_iff. exists t. auto.
Qed.

Lemma mv_functional df missing feats k v v' :
  In (k, v) (flat_map (mv_feature df missing) feats) -> In (k, v') (flat_map (mv_feature df missing) feats) -> v = v'.
Proof.
  intros H H'. apply mv_all_in in H. apply mv_all_in in H'.
  destruct H as [f [t [_ [Ht [-> ->]]]]]. destruct H' as [f' [t' [_ [Ht' [E ->]]]]].
  apply mv_name_inj in E; [|eapply mv_tokens_nodash; eassumption|eapply mv_tokens_nodash; eassumption].
  destruct E as [-> ->]. reflexivity.
Qed.

Lemma multivalue_new df missing feats out :
  multivalue df missing feats = Some out ->
  out = df ++ dict_of (flat_map (mv_feature df missing) feats) /\ forallb (has_col df) feats = true.
Proof.
  unfold multivalue. destruct (forallb _ _); cbn; [|discriminate].
  destruct (negb _); [|discriminate]. intros H. inversion H. auto.
Qed.

Lemma multivalue_appends df missing feats out : wf df -> multivalue df missing feats = Some out -> appends df out.
Proof.
  intros Hw H. apply multivalue_new in H. destruct H as [-> Hf].
  apply appends_dict_of. intros [k col] Hc. apply mv_all_in in Hc. destruct Hc as [f [t [Hin [_ [_ ->]]]]]. cbn. unfold mv_column. rewrite map_length.
  apply getcol_length; [exact Hw|]. rewrite forallb_forall in Hf. apply Hf, Hin.
Qed.

Lemma multivalue_names_nodup df missing feats out :
  multivalue df missing feats = Some out -> NoDup (names (skipn (length df) out)).
Proof. intros H. apply multivalue_new in H. destruct H as [-> _]. rewrite skipn_app_exact. apply dict_of_nodup. Qed.

(* the rule: a column MULTIEX-f-t exists iff t is a non-missing token of some row of f, and it is the indicator of t *)
Theorem multivalue_rule df missing feats out f t :
  multivalue df missing feats = Some out -> In f feats -> ~ In DASH t ->
  ((exists col, In (mv_name f t, col) (skipn (length df) out)) <->
   (~ In t missing /\ exists v, In v (getcol df f) /\ In t (tokens v))) /\
  (forall col, In (mv_name f t, col) (skipn (length df) out) -> col = mv_column (getcol df f) t).
Proof.
  intros H Hf Hd. apply multivalue_new in H. destruct H as [-> _]. rewrite skipn_app_exact.
  assert (Hiff := dict_of_in_iff (flat_map (mv_feature df missing) feats) (mv_functional df missing feats)).
  assert (Hchar : forall col, In (mv_name f t, col) (dict_of (flat_map (mv_feature df missing) feats)) <->
                              In t (mv_tokens missing (getcol df f)) /\ col = mv_column (getcol df f) t).
  { intros col. rewrite Hiff, mv_all_in. split.
    - intros [f' [t' [_ [Ht' [E ->]]]]]. apply mv_name_inj in E; [|exact Hd|eapply mv_tokens_nodash; eassumption].
      destruct E as [-> ->]. auto.
    - intros [Ht ->]. exists f, t. auto. }
  split.
  - rewrite <- mv_tokens_in. split.
    + intros [col Hc]. apply Hchar in Hc. tauto.
    + intros Ht. exists (mv_column (getcol df f) t). apply Hchar. auto.
  - intros col Hc. apply Hchar in Hc. tauto.
Qed.

(* the emitted order: the new columns of one feature follow the code-point order of their tokens *)
Example sort_str_example :
  sort_str [[98%N]; [97; 98]%N; []; [233%N]; [97%N]; [65%N]] = [[]; [65%N]; [97%N]; [97; 98]%N; [98%N]; [233%N]].
Proof. reflexivity. Qed.

Lemma ONE_not_EMPTY : ONE <> EMPTY.
Proof. discriminate. Qed.

(* cell level: "1" exactly on the rows whose delimited value contains the token, "" elsewhere *)
Lemma mv_cell vec t i v : nth_error vec i = Some v ->
  (In t (tokens v) -> nth_error (mv_column vec t) i = Some ONE) /\
  (~ In t (tokens v) -> nth_error (mv_column vec t) i = Some EMPTY).
Proof.
  intros E. unfold mv_column. rewrite nth_error_map, E. cbn. destruct (memb t (tokens v)) eqn:M.
  - apply memb_spec in M. split; [reflexivity | contradiction].
  - split; [|reflexivity]. intros H. apply memb_spec in H. congruence.
Qed.
Lemma mv_column_length vec t : length (mv_column vec t) = length vec.
Proof. apply map_length. Qed.

Lemma nth_error_combine {A B} (xs : list A) : forall (ys : list B) i a b,
  nth_error xs i = Some a -> nth_error ys i = Some b -> nth_error (combine xs ys) i = Some (a, b).
Proof.
  induction xs as [|x xs IH]; intros [|y ys] [|i] a b Ha Hb; cbn in *; try discriminate.
  - inversion Ha; inversion Hb; reflexivity.
  - apply IH; assumption.
Qed.

Lemma subfeatures_new df ops out :
  subfeatures df ops = Some out ->
  out = df ++ dict_of (flat_map (sub_cols df) ops) /\ forallb (op_ok df) ops = true.
Proof. unfold subfeatures. destruct (forallb _ _); [|discriminate]. intros H. inversion H. auto. Qed.

Lemma sub_cols_length df op c : wf df -> op_ok df op = true -> In c (sub_cols df op) -> length (snd c) = nrows df.
Proof.
  intros Hw Hok Hc. destruct op as [fa fb|fa fb]; cbn in Hok; apply andb_true_iff in Hok; destruct Hok as [Hok _];
    apply andb_true_iff in Hok; destruct Hok as [Ha Hb]; cbn in Hc.
  - apply in_map_iff in Hc. destruct Hc as [v [<- _]]. cbn. unfold sub_one_column.
    rewrite map_length, combine_length, !getcol_length by assumption. apply Nat.min_id.
  - apply in_flat_map in Hc. destruct Hc as [v [_ Hc]]. apply in_map_iff in Hc. destruct Hc as [u [<- _]]. cbn.
    unfold sub_two_column. rewrite map_length, combine_length, !getcol_length by assumption. apply Nat.min_id.
Qed.

Lemma subfeatures_appends df ops out : wf df -> subfeatures df ops = Some out -> appends df out.
Proof.
  intros Hw H. apply subfeatures_new in H. destruct H as [-> Hok].
  apply appends_dict_of. intros c Hc. apply in_flat_map in Hc. destruct Hc as [op [Hop Hc]]. eapply sub_cols_length; try eassumption.
  rewrite forallb_forall in Hok. apply Hok, Hop.
Qed.

(* every appended column was generated by one of the operators, under its name; every generated name is present;
   the column kept under a name is the last one generated under it (Python dict assignment) *)
Theorem subfeatures_columns df ops out :
  subfeatures df ops = Some out ->
  let new := skipn (length df) out in
  (forall c, In c new -> exists op, In op ops /\ In c (sub_cols df op)) /\
  (forall nm, In nm (names new) <-> exists op, In op ops /\ In nm (names (sub_cols df op))) /\
  NoDup (names new) /\
  (forall nm, dict_get new nm = assoc_last (flat_map (sub_cols df) ops) nm).
Proof.
  intros H. apply subfeatures_new in H. destruct H as [-> _]. cbn zeta. rewrite skipn_app_exact.
  split; [|split; [|split]].
  - intros c Hc. apply dict_of_in, in_flat_map in Hc. exact Hc.
  - intros nm. unfold names. rewrite dict_of_keys, in_map_iff. split.
    + intros [c [E Hc]]. apply in_flat_map in Hc. destruct Hc as [op [Hop Hc]]. exists op. split; [exact Hop|].
      apply in_map_iff. exists c. auto.
    + intros [op [Hop Hn]]. apply in_map_iff in Hn. destruct Hn as [c [E Hc]]. exists c. split; [exact E|].
      apply in_flat_map. exists op. auto.
  - apply dict_of_nodup.
  - intros nm. apply dict_of_get.
Qed.

Lemma sub_one_cols df fa fb nm col :
  In (nm, col) (sub_cols df (OneSided fa fb)) <->
  exists v, In v (getcol df fb) /\ nm = sub_one_name fa v /\ col = sub_one_column (getcol df fa) (getcol df fb) v.
Proof.
  cbn. rewrite in_map_iff. split.
  - intros [v [E Hv]]. inversion E; subst. exists v. rewrite uniq_in in Hv. auto.
  - intros [v [Hv [-> ->]]]. exists v. rewrite uniq_in. auto.
Qed.

Lemma sub_two_cols df fa fb nm col :
  In (nm, col) (sub_cols df (TwoSided fa fb)) <->
  exists u v, In u (getcol df fa) /\ In v (getcol df fb) /\ nm = sub_two_name fa fb u v /\
              col = sub_two_column (getcol df fa) (getcol df fb) u v.
Proof.
  cbn. rewrite in_flat_map. split.
  - intros [v [Hv H]]. apply in_map_iff in H. destruct H as [u [E Hu]]. inversion E; subst.
    rewrite uniq_in in Hv, Hu. exists u, v. auto.
  - intros [u [v [Hu [Hv [-> ->]]]]]. exists v. rewrite uniq_in. split; [exact Hv|]. apply in_map_iff. exists u.
    rewrite uniq_in. auto.
Qed.

Lemma nth_error_map_combine {A B C} (f : A * B -> C) xs ys i a b :
  nth_error xs i = Some a -> nth_error ys i = Some b -> nth_error (map f (combine xs ys)) i = Some (f (a, b)).
Proof. intros Ha Hb. apply map_nth_error, nth_error_combine; assumption. Qed.

(* one-sided a->b, value v of b: the joined source value a ++ "AND" ++ b exactly where b = v, "" elsewhere *)
Lemma sub_one_cell A B v i a b : nth_error A i = Some a -> nth_error B i = Some b ->
  (b = v -> nth_error (sub_one_column A B v) i = Some (a ++ S_AND ++ b)) /\
  (b <> v -> nth_error (sub_one_column A B v) i = Some EMPTY).
Proof.
  intros Ha Hb. unfold sub_one_column. rewrite (nth_error_map_combine _ A B i a b Ha Hb). cbn.
  split; intros Hv.
  - apply streqb_spec in Hv. rewrite Hv. reflexivity.
  - apply streqb_neq in Hv. rewrite Hv. reflexivity.
Qed.

(* two-sided a<->b, value pair (u, v): the indicator of the pair *)
Lemma sub_two_cell A B u v i a b : nth_error A i = Some a -> nth_error B i = Some b ->
  ((a, b) = (u, v) -> nth_error (sub_two_column A B u v) i = Some ONE) /\
  ((a, b) <> (u, v) -> nth_error (sub_two_column A B u v) i = Some ZERO).
Proof.
  intros Ha Hb. unfold sub_two_column. rewrite (nth_error_map_combine _ A B i a b Ha Hb). cbn.
  split; intros Hv.
  - inversion Hv; subst. rewrite !streqb_refl. reflexivity.
  - destruct (streqb a u) eqn:E1; destruct (streqb b v) eqn:E2; cbn; try reflexivity.
    apply streqb_spec in E1, E2. subst. contradiction Hv. reflexivity.
Qed.

Lemma sub_column_lengths A B u v :
  length (sub_one_column A B v) = Nat.min (length A) (length B) /\
  length (sub_two_column A B u v) = Nat.min (length A) (length B).
Proof. unfold sub_one_column, sub_two_column. split; rewrite map_length, combine_length; reflexivity. Qed.

Lemma transform_appends T df out : transform T df = Some out -> appends df out.
Proof.
  unfold transform. intros H. injection H as <-. apply appends_dict_of.
  intros c Hc. apply in_map_iff in Hc. destruct Hc as [nc [<- _]]. cbn.
  rewrite map_length, seq_length. reflexivity.
Qed.

Lemma noisy_appends rnd df label out : wf df -> noisy rnd df label = Some out -> appends df out.
Proof.
  unfold noisy. intros Hw H. inversion H; subst. eexists. split; [reflexivity|].
  unfold noise_cols. rewrite !Forall_app. split; [|split].
  - apply Forall_forall. intros c Hc. apply in_map_iff in Hc. destruct Hc as [nm [<- _]]. cbn.
    rewrite map_length, seq_length. reflexivity.
  - destruct (has_col df label) eqn:E; constructor; [|constructor]. cbn. apply getcol_length; assumption.
  - constructor; [|constructor]. cbn. rewrite map_length, seq_length. reflexivity.
Qed.

Theorem noisy_target rnd df label out : noisy rnd df label = Some out -> has_col df label = true ->
  let new := skipn (length df) out in
  names new = CONTROL_RANDOM ++ [CONTROL_TARGET; CONTROL_VOLUME] /\
  getcol new CONTROL_TARGET = getcol df label /\ In (CONTROL_TARGET, getcol df label) new.
Proof.
  unfold noisy. intros H Hl. inversion H; subst. cbn zeta. rewrite skipn_app_exact. unfold noise_cols. rewrite Hl.
  split; [reflexivity|]. split; [reflexivity|]. apply in_or_app. right. left. reflexivity.
Qed.

Lemma noisy_names_nolabel rnd df label out : noisy rnd df label = Some out -> has_col df label = false ->
  names (skipn (length df) out) = CONTROL_RANDOM ++ [CONTROL_VOLUME].
Proof.
  unfold noisy. intros H Hl. inversion H; subst. rewrite skipn_app_exact. unfold noise_cols. rewrite Hl. reflexivity.
Qed.

Definition append_step (s : step) : Prop := forall d d', wf d -> s d = Some d' -> appends d d'.

Lemma steps_from_none steps : fold_left (fun acc (s : step) => match acc with Some d => s d | None => None end) steps None = None.
Proof. induction steps; cbn; auto. Qed.

Theorem run_steps_appends steps : Forall append_step steps ->
  forall df df', wf df -> run_steps steps df = Some df' -> appends df df' /\ wf df'.
Proof.
  unfold run_steps. induction steps as [|s steps IH]; intros Hall df df' Hw H; cbn in H.
  - inversion H; subst. split; [apply appends_refl | exact Hw].
  - inversion Hall as [|? ? Hs Hrest]; subst. destruct (s df) as [d1|] eqn:E; [|rewrite steps_from_none in H; discriminate].
    pose proof (Hs df d1 Hw E) as Ha. pose proof (appends_wf _ _ Hw Ha) as Hw1.
    destruct (IH Hrest d1 df' Hw1 H) as [Ha2 Hw2]. split; [eapply appends_trans; eassumption | exact Hw2].
Qed.

Section BatchProofs.
  Variable h : str -> cell.
  Variable T : frame -> list (str * (nat -> cell)).
  Variable rnd : str -> nat -> cell.
  Variable sample : bool -> list (list str) -> list (list str).

  Lemma batch_steps_ok cfg : Forall append_step (batch_steps h T rnd sample cfg).
  Proof.
    unfold batch_steps. repeat rewrite Forall_app. repeat split.
    - destruct (c_transformers cfg); constructor; [|constructor]. intros d d' _. apply transform_appends.
    - destruct (c_explode cfg); constructor; [|constructor]. intros d d'. apply multivalue_appends.
    - destruct (c_submap cfg); constructor; [|constructor]. intros d d'. apply subfeatures_appends.
    - destruct (Nat.ltb 1 (c_io cfg)); constructor; [|constructor]. intros d d' _ H. injection H as <-. apply combined_appends.
    - destruct (c_3mr cfg); constructor; [|constructor]. intros d d' _ H. injection H as <-. apply combined_appends.
    - destruct (c_noise cfg); constructor; [|constructor]. intros d d'. apply noisy_appends.
  Qed.

  Theorem batch_appends cfg df out : wf df -> batch_construct h T rnd sample cfg df = Some out ->
    appends df out /\ wf out.
  Proof. intros Hw H. eapply run_steps_appends; [apply batch_steps_ok | exact Hw | exact H]. Qed.
End BatchProofs.

Lemma append_okb_sound df out : append_okb df out = true -> appends df out.
Proof.
  unfold append_okb. rewrite andb_true_iff. intros [H1 H2]. apply frame_eqb_spec in H1.
  exists (skipn (length df) out). split.
  - rewrite <- H1 at 1. symmetry. apply firstn_skipn.
  - apply Forall_forall. intros c Hc. rewrite forallb_forall in H2. apply Nat.eqb_eq, H2, Hc.
Qed.

Lemma incl_colsb_sound a b : incl_colsb a b = true -> incl a b.
Proof.
  unfold incl_colsb. rewrite forallb_forall. intros H c Hc. specialize (H c Hc). apply existsb_exists in H.
  destruct H as [c' [Hc' E]]. apply column_eqb_spec in E. subst. exact Hc'.
Qed.

Lemma same_colsb_sound a b : same_colsb a b = true ->
  NoDup (names a) /\ NoDup (names b) /\ forall c, In c a <-> In c b.
Proof.
  unfold same_colsb. rewrite !andb_true_iff. intros [[[H1 H2] H3] H4].
  split; [apply nodupb_spec, H1|]. split; [apply nodupb_spec, H2|].
  intros c. split; [apply incl_colsb_sound, H3 | apply incl_colsb_sound, H4].
Qed.

Lemma same_namesb_sound a b : same_namesb a b = true -> NoDup a /\ NoDup b /\ forall x, In x a <-> In x b.
Proof.
  unfold same_namesb. rewrite !andb_true_iff, !forallb_forall. intros [[[H1 H2] H3] H4].
  split; [apply nodupb_spec, H1|]. split; [apply nodupb_spec, H2|].
  intros x. split; intros Hx; apply memb_spec; auto.
Qed.

Theorem check_against_sound df m out :
  check_against df (Some m) out = (true, true) ->
  appends df out /\ forall c, In c (skipn (length df) out) <-> In c (skipn (length df) m).
Proof.
  unfold check_against. intros H. injection H as H1 H2. split; [apply append_okb_sound, H1|].
  apply same_colsb_sound in H2. tauto.
Qed.

Theorem noise_okb_sound df label out : noise_okb df label out = (true, true) -> has_col df label = true ->
  appends df out /\ getcol (skipn (length df) out) CONTROL_TARGET = getcol df label /\
  forall nm, In nm (names (skipn (length df) out)) <-> In nm (CONTROL_RANDOM ++ [CONTROL_TARGET; CONTROL_VOLUME]).
Proof.
  unfold noise_okb. intros H Hl. rewrite Hl in H. injection H as H1 H2.
  apply andb_true_iff in H2. destruct H2 as [Hn Ht]. split; [apply append_okb_sound, H1|].
  split; [apply liststr_eqb_spec, Ht|]. apply same_namesb_sound in Hn. tauto.
Qed.

Example ex_frame : frame :=
  [([109%N], [[97; 44; 98; 45; 99]%N; []; [98%N]; [97; 45]%N]);         (* m = "a,b-c" "" "b" "a-" *)
   ([98%N], [[49; 49]%N; [49%N]; [49; 49]%N; []]);                      (* b = "11" "1" "11" "" *)
   ([121%N], [[120%N]; [120%N]; [121%N]; [121%N]])].                    (* y = "x" "x" "y" "y" *)
Example ex_wf : wf ex_frame.
Proof. repeat constructor. Qed.
Example ex_multivalue :
  option_map (fun out => names (skipn 3 out)) (multivalue_args ex_frame [109%N] [44; 123; 125]%N)
  = Some [mv_name [109%N] [97%N]; mv_name [109%N] [98%N]; mv_name [109%N] [99%N]].
Proof. vm_compute. reflexivity. Qed.
Example ex_sub :
  option_map (fun out => skipn 3 out) (subfeatures_args ex_frame [109; 45; 62; 98]%N)
  = Some [(sub_one_name [109%N] [49; 49]%N, [[97; 44; 98; 45; 99; 65; 78; 68; 49; 49]%N; []; [98; 65; 78; 68; 49; 49]%N; []]);
          (sub_one_name [109%N] [49%N], [[]; [65; 78; 68; 49]%N; []; []]);
          (sub_one_name [109%N] [], [[]; []; []; [97; 45; 65; 78; 68]%N])].
Proof. vm_compute. reflexivity. Qed.
