From Coq Require Import List ZArith Bool Lia Decimal DecimalNat.
From Outrank Require Import Common.ListFacts Features.Interact.
Import ListNotations.

Lemma list_eqb_spec {A} (e : A -> A -> bool) (He : forall x y, e x y = true <-> x = y) :
  forall a b, list_eqb e a b = true <-> a = b.
Proof.
  induction a as [|x a IH]; intros [|y b]; cbn; split; intros H; try reflexivity; try discriminate.
  - apply andb_true_iff in H. destruct H as [H1 H2]. apply He in H1. apply IH in H2. subst. reflexivity.
  - inversion H; subst. apply andb_true_iff. split; [apply He | apply IH]; reflexivity.
Qed.

Lemma streqb_spec a : forall b, streqb a b = true <-> a = b.
Proof. exact (eqb_list_eq N.eqb N.eqb_eq a). Qed.
Lemma streqb_refl a : streqb a a = true.
Proof. apply streqb_spec. reflexivity. Qed.
Lemma streqb_neq a b : streqb a b = false <-> a <> b.
Proof. rewrite <- streqb_spec. symmetry. apply not_true_iff_false. Qed.
Lemma liststr_eqb_spec : forall a b : list str, list_eqb streqb a b = true <-> a = b.
Proof. apply list_eqb_spec. intros; apply streqb_spec. Qed.
Lemma memb_spec x l : memb x l = true <-> In x l.
Proof. apply existsb_eqb_In. intros a b. apply streqb_spec. Qed.
Lemma nodupb_spec l : nodupb l = true <-> NoDup l.
Proof. apply (nodupb_iff_of memb nodupb memb_spec); reflexivity. Qed.
Lemma column_eqb_spec a b : column_eqb a b = true <-> a = b.
Proof.
  destruct a as [k v], b as [k' v']. unfold column_eqb; cbn. rewrite andb_true_iff, streqb_spec, liststr_eqb_spec.
  split; [intros [-> ->]; reflexivity | intros H; inversion H; auto].
Qed.
Lemma frame_eqb_spec a b : frame_eqb a b = true <-> a = b.
Proof. apply list_eqb_spec. intros; apply column_eqb_spec. Qed.

Lemma codes_digits d : Forall is_digit (codes_of_uint d).
Proof. induction d; cbn; constructor; try assumption; unfold is_digit; lia. Qed.

Lemma codes_inj d : forall d', codes_of_uint d = codes_of_uint d' -> d = d'.
Proof.
  induction d; destruct d'; cbn; intros H; try discriminate; try reflexivity;
    inversion H; f_equal; auto.
Qed.

Lemma dec_inj n m : dec n = dec m -> n = m.
Proof.
  unfold dec. intros H. apply codes_inj in H.
  rewrite <- (Unsigned.of_to n), <- (Unsigned.of_to m), H. reflexivity.
Qed.

Lemma split_colon d1 : forall d2 r1 r2, Forall is_digit d1 -> Forall is_digit d2 ->
  d1 ++ COLON :: r1 = d2 ++ COLON :: r2 -> d1 = d2 /\ r1 = r2.
Proof.
  induction d1 as [|a d1 IH]; intros d2 r1 r2 H1 H2 E.
  - destruct d2 as [|b d2]; cbn in E.
    + inversion E. auto.
    + inversion E; subst. inversion H2 as [|? ? Hb _]; subst. unfold is_digit, COLON in Hb. lia.
  - destruct d2 as [|b d2]; cbn in E.
    + inversion E; subst. inversion H1 as [|? ? Ha _]; subst. unfold is_digit, COLON in Ha. lia.
    + inversion E; subst. inversion H1; inversion H2; subst.
      destruct (IH d2 r1 r2) as [-> ->]; auto.
Qed.

Theorem enc_inj t : forall t', enc t = enc t' -> t = t'.
Proof.
  induction t as [|v t IH]; intros [|v' t'] E; cbn [enc] in E; try reflexivity.
  - destruct (dec (length v')); discriminate.
  - destruct (dec (length v)); discriminate.
  - apply split_colon in E; try apply codes_digits. destruct E as [Ed Er].
    apply dec_inj in Ed. apply app_eq_len in Er; [|exact Ed]. destruct Er as [-> Et].
    f_equal. apply IH. exact Et.
Qed.

(* the old encoding is not injective: ("1","11") and ("11","1") *)
Lemma enc_old_refuted : exists t t', t <> t' /\ length t = length t' /\ enc_old t = enc_old t'.
Proof. exists [[49%N]; [49%N; 49%N]], [[49%N; 49%N]; [49%N]]. repeat split. discriminate. Qed.

(* the length prefix WITHOUT the separator is not injective either: ("0","AAAAAAAA3xyz") and ("12AAAAAAAA","xyz")
   both give "1012AAAAAAAA3xyz" (the first reads 1|0|12|AAAAAAAA3xyz, the second 10|12AAAAAAAA|3|xyz) *)
Definition nosep_t1 : list str :=
  [[48]; [65; 65; 65; 65; 65; 65; 65; 65; 51; 120; 121; 122]]%N.
Definition nosep_t2 : list str :=
  [[49; 50; 65; 65; 65; 65; 65; 65; 65; 65]; [120; 121; 122]]%N.
Lemma enc_nosep_refuted : exists t t', t <> t' /\ length t = length t' /\ enc_nosep t = enc_nosep t'.
Proof. exists nosep_t1, nosep_t2. split; [discriminate|]. split; vm_compute; reflexivity. Qed.
(* ... while the real encoding keeps the two apart *)
Example enc_separates_nosep_witness : enc nosep_t1 <> enc nosep_t2.
Proof. vm_compute. discriminate. Qed.

Section WithHash.
  Variable h : str -> cell.

  Lemma equal_if t t' : t = t' -> h (enc t) = h (enc t').
  Proof. intros ->. reflexivity. Qed.

  (* "up to collisions": no collision between the two strings that are hashed *)
  Lemma equal_iff t t' : inj_on h [enc t; enc t'] -> (h (enc t) = h (enc t') <-> t = t').
  Proof.
    intros Hinj. split; [|apply equal_if].
    intros E. apply enc_inj, Hinj; [left; reflexivity | right; left; reflexivity | exact E].
  Qed.

  (* whatever the hash, the old encoding gives two different value tuples of the same arity the same value *)
  Lemma old_aliases : exists t t', t <> t' /\ length t = length t' /\ h (enc_old t) = h (enc_old t').
  Proof.
    destruct enc_old_refuted as [t [t' [Hne [Hl E]]]]. exists t, t'. repeat split; auto. rewrite E. reflexivity.
  Qed.
  Lemma nosep_aliases : exists t t', t <> t' /\ length t = length t' /\ h (enc_nosep t) = h (enc_nosep t').
  Proof.
    destruct enc_nosep_refuted as [t [t' [Hne [Hl E]]]]. exists t, t'. repeat split; auto. rewrite E. reflexivity.
  Qed.
End WithHash.

Lemma name_is_join h sep df comb : fst (combine_feature h sep df comb) = join sep comb.
Proof. reflexivity. Qed.

Example name_example :
  join SEP_AND [[97%N]; [98%N]; [99%N]] = [97; 32; 65; 78; 68; 32; 98; 32; 65; 78; 68; 32; 99]%N.
Proof. reflexivity. Qed.

Lemma dict_set_in {V} (d : list (str * V)) k v kv : In kv (dict_set d k v) -> kv = (k, v) \/ In kv d.
Proof.
  induction d as [|[k' v'] d IH]; cbn; intros H.
  - destruct H as [H|[]]. left. symmetry. exact H.
  - destruct (streqb k k') eqn:E.
    + apply streqb_spec in E. subst k'. destruct H as [H|H]; [left; symmetry; exact H | right; right; exact H].
    + destruct H as [H|H]; [right; left; exact H|]. destruct (IH H) as [H'|H']; [left; exact H' | right; right; exact H'].
Qed.

Lemma dict_set_keys {V} (d : list (str * V)) k v x : In x (map fst (dict_set d k v)) <-> x = k \/ In x (map fst d).
Proof.
  induction d as [|[k' v'] d IH]; cbn.
  - split; [intros [H|[]]; left; symmetry; exact H | intros [H|[]]; left; symmetry; exact H].
  - destruct (streqb k k') eqn:E; cbn.
    + apply streqb_spec in E. subst k'. split; [intros [H|H]; [left; symmetry; exact H | right; right; exact H]|].
      intros [H|[H|H]]; [left; symmetry; exact H | left; exact H | right; exact H].
    + rewrite IH. tauto.
Qed.

Lemma dict_set_nodup {V} (d : list (str * V)) k v : NoDup (map fst d) -> NoDup (map fst (dict_set d k v)).
Proof.
  induction d as [|[k' v'] d IH]; cbn; intros H.
  - constructor; [intros []|constructor].
  - destruct (streqb k k') eqn:E; cbn.
    + exact H.
    + inversion H as [|? ? Hn Hd]; subst. constructor; [|apply IH; exact Hd].
      intros Hin. apply dict_set_keys in Hin. destruct Hin as [Hk|Hin]; [|contradiction].
      subst k'. rewrite streqb_refl in E. discriminate.
Qed.

Lemma dict_of_in {V} (l : list (str * V)) : forall kv, In kv (dict_of l) -> In kv l.
Proof.
  unfold dict_of. refine (fold_left_snoc_inv (fun pre d => forall kv, In kv d -> In kv pre) _ _ l [] [] _); [|intros kv []].
  intros pre d [k v] I kv H. apply in_app_iff. apply dict_set_in in H.
  destruct H as [->|H]; [right; left; reflexivity | left; apply I, H].
Qed.
Lemma dict_of_keys {V} (l : list (str * V)) : forall x, In x (map fst (dict_of l)) <-> In x (map fst l).
Proof.
  unfold dict_of. refine (fold_left_snoc_inv (fun pre d => forall x, In x (map fst d) <-> In x (map fst pre)) _ _ l [] [] _); [|reflexivity].
  intros pre d [k v] I x. rewrite dict_set_keys, map_app, in_app_iff, I. cbn. intuition congruence.
Qed.
Lemma dict_of_nodup {V} (l : list (str * V)) : NoDup (map fst (dict_of l)).
Proof.
  unfold dict_of. refine (fold_left_snoc_inv (fun _ d => NoDup (map fst d)) _ _ l [] [] _); [|constructor].
  intros pre d [k v]. apply dict_set_nodup.
Qed.

(* when equal names carry equal values the dict holds exactly the listed bindings *)
Lemma dict_of_in_iff {V} (l : list (str * V)) :
  (forall k v v', In (k, v) l -> In (k, v') l -> v = v') ->
  forall kv, In kv (dict_of l) <-> In kv l.
Proof.
  intros Hf [k v]. split; [apply dict_of_in|]. intros H.
  assert (Hk : In k (map fst (dict_of l))) by (apply dict_of_keys, in_map_iff; exists (k, v); auto).
  apply in_map_iff in Hk. destruct Hk as [[k' v'] [Ek Hin]]. cbn in Ek. subst k'.
  rewrite (Hf k v v' H (dict_of_in _ _ Hin)). exact Hin.
Qed.

Lemma rows_of_length cols n : length (rows_of cols n) = n.
Proof. unfold rows_of. rewrite map_length, seq_length. reflexivity. Qed.

Lemma rows_of_nth cols n i : i < n ->
  nth_error (rows_of cols n) i = Some (map (fun c => nth i c []) cols).
Proof.
  intros H. unfold rows_of. rewrite nth_error_map.
  replace (nth_error (seq 0 n) i) with (Some i); [reflexivity|].
  symmetry. rewrite (nth_error_nth' _ 0) by (rewrite seq_length; exact H). rewrite seq_nth by exact H. reflexivity.
Qed.

Lemma tuples_length df comb : length (tuples df comb) = nrows df.
Proof. apply rows_of_length. Qed.
Lemma feature_values_length h df comb : length (feature_values h df comb) = nrows df.
Proof. unfold feature_values. rewrite map_length. apply tuples_length. Qed.

(* append-only: the returned frame is the input followed by new columns of one value per row *)
Definition appends (df df' : frame) : Prop :=
  exists app, df' = df ++ app /\ Forall (fun c : column => length (snd c) = nrows df) app.

Lemma skipn_app_exact {A} (a b : list A) : skipn (length a) (a ++ b) = b.
Proof. rewrite skipn_app, Nat.sub_diag, skipn_all. reflexivity. Qed.

Lemma appends_firstn df df' : appends df df' ->
  firstn (length df) df' = df /\ Forall (fun c : column => length (snd c) = nrows df) (skipn (length df) df').
Proof.
  intros [app [-> H]]. split; [apply firstn_exact | rewrite skipn_app_exact; exact H].
Qed.

Lemma appends_refl df : appends df df.
Proof. exists []. split; [symmetry; apply app_nil_r | constructor]. Qed.

Lemma appends_nrows df df' : appends df df' -> nrows df' = nrows df.
Proof.
  intros [app [-> H]]. destruct df as [|c df]; [|reflexivity]. cbn.
  destruct app as [|c app]; [reflexivity|]. inversion H; subst. assumption.
Qed.

Lemma appends_trans a b c : appends a b -> appends b c -> appends a c.
Proof.
  intros Hab Hbc. pose proof (appends_nrows _ _ Hab) as En.
  destruct Hab as [p [-> Hp]]. destruct Hbc as [q [-> Hq]].
  exists (p ++ q). split; [symmetry; apply app_assoc|]. apply Forall_app. split; [exact Hp|].
  rewrite En in Hq. exact Hq.
Qed.

Lemma appends_wf df df' : wf df -> appends df df' -> wf df'.
Proof.
  intros Hw Ha. unfold wf. rewrite (appends_nrows _ _ Ha). destruct Ha as [app [-> H]].
  apply Forall_app. split; assumption.
Qed.

(* every constructor returns its input followed by a dict of new columns *)
Lemma appends_dict_of df (l : list column) :
  (forall c, In c l -> length (snd c) = nrows df) -> appends df (df ++ dict_of l).
Proof.
  intros H. exists (dict_of l). split; [reflexivity|]. apply Forall_forall. intros c Hc. apply H, dict_of_in, Hc.
Qed.

Lemma combined_appends h sep df sel : appends df (combined h sep df sel).
Proof.
  apply appends_dict_of. intros c Hc. apply in_map_iff in Hc.
  destruct Hc as [comb [<- _]]. apply feature_values_length.
Qed.

(* every appended column is the feature of one selected combination, and every selected combination has one *)
Lemma combined_new h sep df sel c :
  In c (skipn (length df) (combined h sep df sel)) -> exists comb, In comb sel /\ c = combine_feature h sep df comb.
Proof.
  unfold combined. rewrite skipn_app_exact. intros H. apply dict_of_in in H.
  apply in_map_iff in H. destruct H as [comb [E Hin]]. exists comb. auto.
Qed.
Lemma combined_names h sep df sel nm :
  In nm (names (skipn (length df) (combined h sep df sel))) <-> In nm (map (join sep) sel).
Proof.
  unfold combined, names. rewrite skipn_app_exact, dict_of_keys, map_map. cbn. reflexivity.
Qed.

Lemma same_part_maps {A B C} (f : A -> B) (g : A -> C) (l : list A) :
  (forall x y, In x l -> In y l -> (f x = f y <-> g x = g y)) -> same_part (map f l) (map g l).
Proof.
  intros H. split; [rewrite !map_length; reflexivity|].
  intros i j a a' b b'. rewrite !nth_error_map.
  destruct (nth_error l i) as [x|] eqn:Ei; cbn; [|discriminate].
  destruct (nth_error l j) as [y|] eqn:Ej; cbn; [|discriminate].
  intros Ea Ea' Eb Eb'. inversion Ea; inversion Ea'; inversion Eb; inversion Eb'; subst.
  apply H; eapply nth_error_In; eassumption.
Qed.

Lemma same_part_map_inj {A B} (f : A -> B) (l : list A) : inj_on f l -> same_part (map f l) l.
Proof.
  intros H. rewrite <- (map_id l) at 2. apply same_part_maps. intros x y Hx Hy.
  split; [apply H; assumption | intros ->; reflexivity].
Qed.

Lemma same_part_sym {A B} (xs : list A) (ys : list B) : same_part xs ys -> same_part ys xs.
Proof. intros [Hl H]. split; [symmetry; exact Hl|]. intros i j b b' a a' ? ? ? ?. symmetry. eapply H; eassumption. Qed.

Section PartitionTest.
  Context {A B} (ea : A -> A -> bool) (eb : B -> B -> bool).
  Hypothesis Ha : forall x y, ea x y = true <-> x = y.
  Hypothesis Hb : forall x y, eb x y = true <-> x = y.

  Lemma pair_rowb_iff a b : forall xs ys, pair_rowb ea eb a b xs ys = true <->
    length xs = length ys /\
    forall j a' b', nth_error xs j = Some a' -> nth_error ys j = Some b' -> (a = a' <-> b = b').
  Proof.
    induction xs as [|x xs IH]; intros [|y ys]; cbn [pair_rowb length]; try (split; [discriminate|intros [? _]; discriminate]).
    - split; [|reflexivity]. intros _. split; [reflexivity|]. intros [|j]; discriminate.
    - rewrite andb_true_iff, IH, eqb_true_iff. split.
      + intros (H1 & Hl & Hr). split; [congruence|]. intros [|j] a' b'; cbn [nth_error]; [|apply Hr].
        intros [= <-] [= <-]. rewrite <- Ha, <- Hb, H1. reflexivity.
      + intros [Hl H]. split; [|split; [congruence|intros j; apply (H (S j))]].
        apply eq_true_iff_eq. rewrite Ha, Hb. exact (H 0 x y eq_refl eq_refl).
  Qed.

  Lemma same_partb_iff : forall xs ys, same_partb ea eb xs ys = true <-> same_part xs ys.
  Proof.
    unfold same_part.
    induction xs as [|x xs IH]; intros [|y ys]; cbn [same_partb length]; try (split; [discriminate|intros [? _]; discriminate]).
    - split; [|reflexivity]. intros _. split; [reflexivity|]. intros [|i]; discriminate.
    - rewrite andb_true_iff, pair_rowb_iff, IH. split.
      + intros [[Hl Hrow] [_ Hrec]]. split; [congruence|].
        intros [|i] [|j] a a' b b'; cbn [nth_error]; intros E1 E2 E3 E4.
        * inversion E1; inversion E2; inversion E3; inversion E4; subst. tauto.
        * inversion E1; inversion E3; subst. eapply Hrow; eassumption.
        * inversion E2; inversion E4; subst. split; intros E; symmetry; symmetry in E; eapply Hrow; eassumption.
        * eapply Hrec; eassumption.
      + intros [Hl H]. assert (Hl' : length xs = length ys) by congruence. split; (split; [exact Hl'|]).
        * intros j a' b' E1 E2. exact (H 0 (S j) x a' y b' eq_refl E1 eq_refl E2).
        * intros i j. apply (H (S i) (S j)).
  Qed.
End PartitionTest.

Lemma partition_test_exact (xs : list N) (ys : list (list str)) :
  same_partb N.eqb (list_eqb streqb) xs ys = true <-> same_part xs ys.
Proof. apply same_partb_iff; [apply N.eqb_eq | apply liststr_eqb_spec]. Qed.

(* "up to 64-bit hash collisions", made precise: no collision among the strings hashed for this frame and combination.
   (Global injectivity of h can never hold of a 16-hex-digit digest; this can, and is what a run of the code relies on.) *)
Definition no_collision (h : str -> cell) (df : frame) (comb : list str) : Prop :=
  inj_on h (map enc (tuples df comb)).

(* the value tuple of row i *)
Definition row_of (df : frame) (comb : list str) (i : nat) : list cell :=
  map (fun c => nth i c []) (map (getcol df) comb).

Lemma tuples_nth df comb i : i < nrows df -> nth_error (tuples df comb) i = Some (row_of df comb i).
Proof. intros Hi. unfold tuples. apply rows_of_nth. exact Hi. Qed.

Lemma row_of_eq df comb i j :
  row_of df comb i = row_of df comb j <-> forall f, In f comb -> nth i (getcol df f) [] = nth j (getcol df f) [].
Proof. unfold row_of. rewrite !map_map. apply map_ext_in_iff. Qed.

Section Score.
  Variable h : str -> cell.

  (* without collisions the hash of the encoding separates the value tuples of the combination, and so does any
     coding of the hash cells that separates the cells that occur *)
  Lemma tuple_hash_inj df comb : no_collision h df comb -> inj_on (fun t => h (enc t)) (tuples df comb).
  Proof. intros H x y Hx Hy E. apply enc_inj, H; [apply in_map; exact Hx | apply in_map; exact Hy | exact E]. Qed.

  Lemma tuple_code_inj {C} (cH : cell -> C) df comb : no_collision h df comb ->
    inj_on cH (feature_values h df comb) -> inj_on (fun t => cH (h (enc t))) (tuples df comb).
  Proof.
    intros Hnc HcH x y Hx Hy E. apply (tuple_hash_inj df comb Hnc); [exact Hx | exact Hy|].
    apply HcH; [apply (in_map (fun r => h (enc r))); exact Hx | apply (in_map (fun r => h (enc r))); exact Hy | exact E].
  Qed.

  (* the new column partitions the rows exactly as the explicit value tuples do *)
  Lemma feature_partition df comb : no_collision h df comb ->
    same_part (feature_values h df comb) (tuples df comb).
  Proof. intros H. unfold feature_values. apply same_part_map_inj, tuple_hash_inj, H. Qed.

  (* row-level reading: two rows get equal values iff they agree on every constituent feature *)
  Lemma rows_iff df comb i j : no_collision h df comb -> i < nrows df -> j < nrows df ->
    (nth_error (feature_values h df comb) i = nth_error (feature_values h df comb) j
     <-> forall f, In f comb -> nth i (getcol df f) [] = nth j (getcol df f) []).
  Proof.
    intros Hnc Hi Hj. pose proof (tuples_nth df comb i Hi) as Ti. pose proof (tuples_nth df comb j Hj) as Tj.
    unfold feature_values.
    rewrite (nth_error_map (fun r : list cell => h (enc r)) i), (nth_error_map (fun r : list cell => h (enc r)) j), Ti, Tj.
    cbn [option_map]. rewrite <- row_of_eq. split.
    - intros E. injection E as E. apply (tuple_hash_inj df comb Hnc); [| |exact E]; eapply nth_error_In; eassumption.
    - intros E. rewrite E. reflexivity.
  Qed.


  (* any scorer that sees only the partition scores the coded interaction feature as it scores the coded tuples,
     whatever category codes, injective on the occurring values, are used on either side: the two coded columns
     induce one partition, by the same injectivity that gives feature_partition *)
  Lemma score_equal {S} (score : list N -> list N -> S) (cH : cell -> N) (cT : list cell -> N) df comb T :
    no_collision h df comb ->
    partition_invariant score ->
    inj_on cH (feature_values h df comb) -> inj_on cT (tuples df comb) ->
    score (map cH (feature_values h df comb)) T = score (map cT (tuples df comb)) T.
  Proof.
    intros Hnc Hs HcH HcT. apply Hs. unfold feature_values. rewrite map_map.
    apply same_part_maps. intros x y Hx Hy. split; intros E.
    - f_equal. apply (tuple_code_inj cH df comb Hnc HcH); assumption.
    - rewrite (HcT x y Hx Hy E). reflexivity.
  Qed.
End Score.

(* the hypothesis is satisfiable: the identity "hash" never collides, on any frame *)
Lemma no_collision_id df comb : no_collision (fun x => x) df comb.
Proof. intros x y _ _ E. exact E. Qed.

(* the old encoding breaks the partition on a 2-row frame, for every hash *)
Definition witness_frame : frame :=
  [([97%N], [[49%N]; [49%N; 49%N]]); ([98%N], [[49%N; 49%N]; [49%N]])].    (* a = ["1","11"], b = ["11","1"] *)
Lemma old_partition_refuted (h : str -> cell) :
  ~ same_part (feature_values_old h witness_frame [[97%N]; [98%N]]) (tuples witness_frame [[97%N]; [98%N]]).
Proof.
  intros [_ H]. specialize (H 0 1 _ _ _ _ eq_refl eq_refl eq_refl eq_refl). cbn in H.
  destruct H as [H _]. specialize (H eq_refl). discriminate.
Qed.

Lemma combinations_spec {A} (l : list A) : forall k c, In c (combinations l k) -> length c = k /\ incl c l.
Proof.
  induction l as [|x l IH]; intros [|k] c H; cbn in H.
  - destruct H as [<-|[]]. split; [reflexivity | intros ? []].
  - destruct H.
  - destruct H as [<-|[]]. split; [reflexivity | intros ? []].
  - apply in_app_or in H. destruct H as [H|H].
    + apply in_map_iff in H. destruct H as [c' [<- Hc']]. apply IH in Hc'. destruct Hc' as [Hl Hi].
      split; [cbn; congruence|]. intros y [<-|Hy]; [left; reflexivity | right; apply Hi, Hy].
    + apply IH in H. destruct H as [Hl Hi]. split; [exact Hl|]. intros y Hy. right. apply Hi, Hy.
Qed.

Lemma candidates_spec df label io is3mr c : In c (candidates df label io is3mr) ->
  length c = (if is3mr then 2 else io) /\ (forall f, In f c -> In f (names df) /\ f <> label).
Proof.
  unfold candidates. destruct (Nat.ltb 1 io); [|intros []]. intros H. apply combinations_spec in H.
  destruct H as [Hl Hi]. split; [exact Hl|]. intros f Hf. apply Hi in Hf. unfold feature_columns in Hf.
  apply filter_In in Hf. destruct Hf as [Hn Hb]. split; [exact Hn|]. intros ->. rewrite streqb_refl in Hb. discriminate.
Qed.

Lemma C10_check_sound sep df label io is3mr cap obs_prefix obs_new :
  C10_check sep df label io is3mr cap obs_prefix obs_new = true ->
  obs_prefix = df /\
  length obs_new = cap_len (length (candidates df label io is3mr)) cap /\
  NoDup (map fst obs_new) /\
  forall nm ids, In (nm, ids) obs_new ->
    exists comb, In comb (candidates df label io is3mr) /\ nm = join sep comb /\ same_part ids (tuples df comb).
Proof.
  unfold C10_check. cbn. rewrite !andb_true_iff. intros [[[H1 H2] H3] H4].
  split; [apply frame_eqb_spec, H1|]. split; [apply Nat.eqb_eq, H2|]. split; [apply nodupb_spec, H3|].
  intros nm ids Hin. rewrite forallb_forall in H4.
  assert (Hc : C10_colcheck sep df (candidates df label io is3mr) (nm, ids) = true).
  { apply H4. apply in_map_iff. exists (nm, ids). split; [reflexivity | exact Hin]. }
  unfold C10_colcheck in Hc. cbn in Hc.
  destruct (find _ _) as [comb|] eqn:Ef; [|discriminate]. apply find_some in Ef. destruct Ef as [Hc1 Hc2].
  exists comb. split; [exact Hc1|]. split; [symmetry; apply streqb_spec, Hc2|].
  apply partition_test_exact, Hc.
Qed.

(* one frame on which the transcription passes its own checker, the ids an injective relabelling of the hash cells *)
Example C10_check_model_example :
  let df : frame := [([97%N], [[49%N]; [49%N; 49%N]; [49%N]]); ([98%N], [[49%N; 49%N]; [49%N]; [49%N; 49%N]]);
                     ([121%N], [[48%N]; [49%N]; [48%N]])] in
  C10_check SEP_AND df [121%N] 2 false 5%Z df [([97; 32; 65; 78; 68; 32; 98]%N, [7; 9; 7]%N)] = true.
Proof. vm_compute. reflexivity. Qed.
