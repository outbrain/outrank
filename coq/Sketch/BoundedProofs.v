(* C15 — the bounded counter of Sketch/Bounded.v is an association list that stays duplicate-free, never
   over-counts, and is exact until [bound] keys are held. *)
From Coq Require Import List ZArith Bool Lia.
From Outrank Require Import Common.ListFacts Sketch.Bounded.
Import ListNotations.
Open Scope Z_scope.

Definition keys (c : counter) : list N := map fst c.

Lemma get_incr c k : forall k', get (incr c k) k' = if N.eqb k' k then get c k + 1 else get c k'.
Proof.
  induction c as [|[k0 n0] c IH]; intros k'; cbn [incr get].
  - destruct (N.eqb k' k); reflexivity.
  - destruct (N.eqb_spec k k0) as [->|Hk]; cbn [get].
    + destruct (N.eqb_spec k' k0); [reflexivity|reflexivity].
    + rewrite IH. destruct (N.eqb_spec k' k0) as [->|H0]; [|reflexivity].
      destruct (N.eqb_spec k0 k); [congruence|reflexivity].
Qed.

Lemma keys_incr_in c k : forall k', In k' (keys (incr c k)) <-> k' = k \/ In k' (keys c).
Proof.
  induction c as [|[k0 n0] c IH]; intros k'; cbn [incr keys map fst In].
  - intuition.
  - destruct (N.eqb_spec k k0) as [->|Hk]; cbn [keys map fst In].
    + intuition.
    + fold (keys (incr c k)). rewrite IH. fold (keys c). intuition.
Qed.

Lemma keys_incr_nodup c k : NoDup (keys c) -> NoDup (keys (incr c k)).
Proof.
  induction c as [|[k0 n0] c IH]; intros H; cbn [incr keys map fst].
  - constructor; [intros []|constructor].
  - inversion H as [|a b Hnin Hnd]; subst. destruct (N.eqb_spec k k0) as [->|Hk]; cbn [keys map fst].
    + constructor; assumption.
    + constructor.
      * fold (keys (incr c k)). rewrite keys_incr_in. fold (keys c) in Hnin. intros [E|E]; [congruence|contradiction].
      * apply IH. exact Hnd.
Qed.

Lemma incr_length c k : (length c <= length (incr c k) <= S (length c))%nat.
Proof.
  induction c as [|[k0 n0] c IH]; cbn [incr length]; [lia|].
  destruct (N.eqb k k0); cbn [length]; lia.
Qed.

Lemma get_notin c k : ~ In k (keys c) -> get c k = 0.
Proof.
  induction c as [|[k0 n0] c IH]; cbn [get keys map fst In]; [reflexivity|]. intros H.
  destruct (N.eqb_spec k k0) as [->|Hk]; [tauto|]. apply IH. tauto.
Qed.

Lemma get_of_in c k n : NoDup (keys c) -> In (k, n) c -> get c k = n.
Proof.
  induction c as [|[k0 n0] c IH]; intros Hnd Hin; [contradiction|].
  cbn [keys map fst] in Hnd. inversion Hnd as [|a b Hnin Hnd']; subst. cbn [get].
  destruct Hin as [E|Hin].
  - inversion E; subst. now rewrite N.eqb_refl.
  - destruct (N.eqb_spec k k0) as [->|Hk]; [|now apply IH].
    exfalso. apply Hnin. apply in_map_iff. exists (k0, n). split; [reflexivity|exact Hin].
Qed.

Lemma occ_app v l l' : occ v (l ++ l') = occ v l + occ v l'.
Proof. unfold occ. rewrite count_occ_app. lia. Qed.
Lemma occ_single v k : occ v [k] = if N.eqb v k then 1 else 0.
Proof.
  unfold occ. cbn [count_occ]. destruct (N.eq_dec k v) as [->|H].
  - now rewrite N.eqb_refl.
  - destruct (N.eqb_spec v k); [congruence|reflexivity].
Qed.
Lemma occ_nonneg v l : 0 <= occ v l.
Proof. unfold occ. lia. Qed.
Lemma occ_pos_in v l : 1 <= occ v l -> In v l.
Proof. unfold occ. intros H. apply (count_occ_In N.eq_dec). lia. Qed.

Lemma distinct_app_le l l' : (distinct l <= distinct (l ++ l'))%nat.
Proof. apply nodup_incl_length, incl_appl, incl_refl. Qed.

(* the part of the invariant that holds for every stream *)
Definition tracks (l : list N) (c : counter) : Prop :=
  NoDup (keys c) /\ (forall k, In k (keys c) -> 1 <= get c k) /\ (forall k, get c k <= occ k l).

Lemma tracks_nil : tracks [] [].
Proof. repeat split; [constructor|intros k []|intros k; cbn; unfold occ; cbn; lia]. Qed.

Lemma tracks_get_nonneg l c k : tracks l c -> 0 <= get c k.
Proof.
  intros (Hnd & H1 & _). destruct (in_dec N.eq_dec k (keys c)) as [Hin|Hnin].
  - specialize (H1 k Hin). lia.
  - rewrite get_notin by exact Hnin. lia.
Qed.

Lemma tracks_bounds l c k : tracks l c -> 0 <= get c k <= occ k l.
Proof. intros HP. split; [apply (tracks_get_nonneg l c k HP)|apply HP]. Qed.

Lemma tracks_incr l c k : tracks l c -> tracks (l ++ [k]) (incr c k).
Proof.
  intros HP. pose proof HP as (Hnd & H1 & H2). repeat split.
  - apply keys_incr_nodup. exact Hnd.
  - intros k' Hin. rewrite get_incr. apply keys_incr_in in Hin.
    destruct (N.eqb_spec k' k) as [->|Hk].
    + pose proof (tracks_get_nonneg l c k HP). lia.
    + destruct Hin as [E|Hin]; [congruence|]. now apply H1.
  - intros k'. rewrite get_incr, occ_app, occ_single.
    destruct (N.eqb_spec k' k) as [->|Hk]; [specialize (H2 k); lia|specialize (H2 k'); lia].
Qed.

Lemma tracks_weaken l l' c : tracks l c -> tracks (l ++ l') c.
Proof.
  intros (Hnd & H1 & H2). repeat split; try assumption.
  intros k. rewrite occ_app. pose proof (occ_nonneg k l'). specialize (H2 k). lia.
Qed.

Lemma exact_incr l c k : (forall v, get c v = occ v l) -> forall v, get (incr c k) v = occ v (l ++ [k]).
Proof. intros H v. rewrite get_incr, occ_app, occ_single, !H. destruct (N.eqb_spec v k) as [->|Hk]; lia. Qed.

Lemma tracks_len l c : tracks l c -> (length c <= distinct l)%nat.
Proof.
  intros (Hnd & H1 & H2). unfold distinct. replace (length c) with (length (keys c)) by apply map_length.
  apply NoDup_incl_length; [exact Hnd|]. intros k Hk. apply nodup_In. apply occ_pos_in.
  specialize (H1 k Hk). specialize (H2 k). lia.
Qed.

Section WithBound.
  Variable bound : Z.
  Notation cadd := (cadd bound).
  Notation cbatch := (cbatch bound).
  Notation cstep := (cstep bound).
  Notation crun := (crun bound).
  Notation crun_ops := (crun_ops bound).
  Notation ctrace := (ctrace bound).

  Lemma tracks_step l c o : tracks l c -> tracks (l ++ cflat1 o) (cstep c o).
  Proof.
    intros H. destruct o as [v|vs]; cbn [Bounded.cstep cflat1]; unfold Bounded.cadd, Bounded.cbatch;
      destruct (Z.ltb_spec (Z.of_nat (length c)) bound).
    - now apply tracks_incr.
    - now apply tracks_weaken.
    - now apply (fold_left_snoc_inv tracks incr tracks_incr).
    - now apply tracks_weaken.
  Qed.

  Definition exact_below (l : list N) (c : counter) : Prop :=
    Z.of_nat (distinct l) < bound -> forall v, get c v = occ v l.

  (* while fewer than [bound] distinct values have been seen no update is refused: the counter stays exact
     through the step, whatever the step adds *)
  Lemma exact_step l c o : tracks l c -> Z.of_nat (distinct l) < bound -> (forall v, get c v = occ v l) ->
    forall v, get (cstep c o) v = occ v (l ++ cflat1 o).
  Proof.
    intros HP Hd HE. pose proof (tracks_len l c HP) as Hlen.
    destruct o as [v|vs]; cbn [Bounded.cstep cflat1]; unfold Bounded.cadd, Bounded.cbatch;
      destruct (Z.ltb_spec (Z.of_nat (length c)) bound); try lia.
    - apply exact_incr, HE.
    - apply fold_left_snoc_inv with (I := fun l c => forall v, get c v = occ v l); [exact exact_incr|exact HE].
  Qed.

  Lemma exact_below_step l c o : tracks l c -> exact_below l c -> exact_below (l ++ cflat1 o) (cstep c o).
  Proof.
    intros HP HE Hd. pose proof (distinct_app_le l (cflat1 o)) as Hm.
    assert (Hd0 : Z.of_nat (distinct l) < bound) by lia. exact (exact_step l c o HP Hd0 (HE Hd0)).
  Qed.

  Lemma tracks_exact_step l c o : tracks l c /\ exact_below l c -> tracks (l ++ cflat1 o) (cstep c o) /\ exact_below (l ++ cflat1 o) (cstep c o).
  Proof. intros [HP HE]. split; [now apply tracks_step|now apply exact_below_step]. Qed.

  Lemma exact_below_nil : exact_below [] [].
  Proof. intros _ v. reflexivity. Qed.

  Theorem ops_inv ops : tracks (cflat ops) (crun_ops ops) /\ exact_below (cflat ops) (crun_ops ops).
  Proof.
    unfold cflat, Bounded.crun_ops.
    apply fold_left_flat_inv with (I := fun l c => tracks l c /\ exact_below l c) (l := []); [exact tracks_exact_step|].
    exact (conj tracks_nil exact_below_nil).
  Qed.

  Theorem run_inv l : tracks l (crun l) /\ exact_below l (crun l).
  Proof.
    unfold Bounded.crun. apply fold_left_snoc_inv with (I := fun l c => tracks l c /\ exact_below l c) (l := []).
    - intros l0 c v. exact (tracks_exact_step l0 c (CAdd v)).
    - exact (conj tracks_nil exact_below_nil).
  Qed.

  (* never over-counts; also for mixed add/batch_add streams *)
  Theorem no_over l v : 0 <= get (crun l) v <= occ v l.
  Proof. apply tracks_bounds, run_inv. Qed.
  Theorem no_over_ops ops v : 0 <= get (crun_ops ops) v <= occ v (cflat ops).
  Proof. apply tracks_bounds, ops_inv. Qed.

  (* exact while fewer than [bound] distinct values have been seen *)
  Theorem exact l v : Z.of_nat (distinct l) < bound -> get (crun l) v = occ v l.
  Proof. intros H. destruct (run_inv l) as [_ HE]. now apply HE. Qed.
  Theorem exact_ops ops v : Z.of_nat (distinct (cflat ops)) < bound -> get (crun_ops ops) v = occ v (cflat ops).
  Proof. intros H. destruct (ops_inv ops) as [_ HE]. now apply HE. Qed.

  Lemma crun_snoc l x : crun (l ++ [x]) = cadd (crun l) x.
  Proof. unfold Bounded.crun. now rewrite fold_left_app. Qed.

  (* the arrival that makes the number of distinct values reach the bound is still counted *)
  Theorem exact_boundary l x v : Z.of_nat (distinct l) < bound -> get (crun (l ++ [x])) v = occ v (l ++ [x]).
  Proof.
    intros H. rewrite crun_snoc. destruct (run_inv l) as [HP HE]. exact (exact_step l _ (CAdd x) HP H (HE H) v).
  Qed.

  Lemma cadd_len c v : Z.of_nat (length c) <= Z.max bound 0 -> Z.of_nat (length (cadd c v)) <= Z.max bound 0.
  Proof.
    intros H. unfold Bounded.cadd. destruct (Z.ltb_spec (Z.of_nat (length c)) bound); [|exact H].
    pose proof (incr_length c v). lia.
  Qed.

  (* never tracks more than [bound] distinct values (item-by-item feeding) *)
  Theorem size l : Z.of_nat (length (crun l)) <= Z.max bound 0 /\ NoDup (keys (crun l)).
  Proof.
    split; [|destruct (run_inv l) as [(H & _) _]; exact H].
    unfold Bounded.crun. apply fold_left_snoc_inv with (I := fun _ c => Z.of_nat (length c) <= Z.max bound 0) (l := []).
    - intros _ c v. apply cadd_len.
    - cbn. lia.
  Qed.

  (* once the bound is reached every further update is refused *)
  Theorem frozen l l' : bound <= Z.of_nat (length (crun l)) -> crun (l ++ l') = crun l.
  Proof.
    intros H. unfold Bounded.crun. rewrite fold_left_app. fold (crun l). generalize dependent (crun l).
    induction l' as [|v l' IH]; intros c H; cbn [fold_left]; [reflexivity|].
    unfold Bounded.cadd at 2. destruct (Z.ltb_spec (Z.of_nat (length c)) bound); [lia|]. now apply IH.
  Qed.

  Lemma nodupkeys_NoDup c : nodupkeys c = true <-> NoDup (keys c).
  Proof.
    induction c as [|[k n] c IH]; cbn [nodupkeys keys map fst]; [split; [constructor|reflexivity]|].
    rewrite andb_true_iff, negb_true_iff, IH, NoDup_cons_iff. unfold keys.
    enough (E : existsb (fun e => N.eqb k (fst e)) c = false <-> ~ In k (map fst c)) by (rewrite E; reflexivity).
    rewrite <- not_true_iff_false, existsb_exists, in_map_iff.
    split; intros H; contradict H; destruct H as (e & A & B); exists e.
    - split; [exact B|]. rewrite A. apply N.eqb_refl.
    - apply N.eqb_eq in B. split; [now symmetry|exact A].
  Qed.

  Definition cclause (univ : list N) (single : bool) (l : list N) (c : counter) : Prop :=
    NoDup (keys c) /\
    (forall v, 0 <= get c v <= occ v l) /\
    (Z.of_nat (distinct l) < bound -> forall v, In v (univ ++ l) -> get c v = occ v l) /\
    (single = true -> Z.of_nat (length c) <= Z.max bound 0).

  Theorem ccheck1_sound univ single l c : ccheck1 bound univ single l c = true -> cclause univ single l c.
  Proof.
    unfold ccheck1, cclause. intros H.
    apply andb_prop in H. destruct H as [H H4]. apply andb_prop in H. destruct H as [H H3].
    apply andb_prop in H. destruct H as [H1 H2]. apply nodupkeys_NoDup in H1. rewrite forallb_forall in H2.
    split; [exact H1|]. split; [|split].
    - intros v. pose proof (occ_nonneg v l).
      destruct (in_dec N.eq_dec v (keys c)) as [Hin|Hnin]; [|rewrite get_notin by exact Hnin; lia].
      apply in_map_iff in Hin. destruct Hin as ([k n] & Hk & Hin). cbn [fst] in Hk. subst k.
      rewrite (get_of_in c v n H1 Hin). specialize (H2 _ Hin). cbn [fst snd] in H2. lia.
    - intros Hd v Hv. destruct (Z.ltb_spec (Z.of_nat (distinct l)) bound); [|lia].
      rewrite forallb_forall in H3. specialize (H3 v Hv). lia.
    - intros ->. lia.
  Qed.

  Lemma ccheck1_model univ single l c : tracks l c -> exact_below l c ->
    (single = true -> Z.of_nat (length c) <= Z.max bound 0) -> ccheck1 bound univ single l c = true.
  Proof.
    intros HP HE HS. pose proof HP as (Hnd & H1 & H2). unfold ccheck1.
    rewrite (proj2 (nodupkeys_NoDup c) Hnd). cbn [andb].
    apply andb_true_intro. split; [apply andb_true_intro; split|].
    - apply forallb_forall. intros [k n] Hin. cbn [fst snd].
      pose proof (get_of_in c k n Hnd Hin) as Eg.
      assert (Hk : In k (keys c)) by (apply in_map_iff; exists (k, n); split; [reflexivity|exact Hin]).
      specialize (H1 k Hk). specialize (H2 k). lia.
    - destruct (Z.ltb_spec (Z.of_nat (distinct l)) bound) as [Hd|Hd]; [|reflexivity].
      apply forallb_forall. intros v _. rewrite (HE Hd v). lia.
    - destruct single; [|reflexivity]. specialize (HS eq_refl). lia.
  Qed.

  Lemma ccheckb_model univ ops : forall single l c, tracks l c -> exact_below l c ->
    (single = true -> Z.of_nat (length c) <= Z.max bound 0) ->
    forallb (fun b => b) (ccheckb bound univ single l ops (ctrace c ops)) = true.
  Proof.
    induction ops as [|o ops IH]; intros single l c HP HE HS; cbn [Bounded.ctrace ccheckb forallb]; [reflexivity|].
    assert (HS' : single && match o with CAdd _ => true | CBatch _ => false end = true ->
                  Z.of_nat (length (cstep c o)) <= Z.max bound 0).
    { intros Hs. apply andb_prop in Hs. destruct Hs as [Hs Ho]. specialize (HS Hs).
      destruct o as [v|vs]; [|discriminate]. apply cadd_len, HS. }
    rewrite ccheck1_model; [|now apply tracks_step|now apply exact_below_step|exact HS']. cbn [andb].
    apply IH; [now apply tracks_step|now apply exact_below_step|exact HS'].
  Qed.

  Theorem cmodel_ok univ ops :
    forallb (fun b => b) (ccheckb bound univ true [] ops (ctrace [] ops)) = true.
  Proof. apply ccheckb_model; [apply tracks_nil|apply exact_below_nil|intros _; cbn; lia]. Qed.
End WithBound.

(* batch_add can overshoot the bound: the size clause is about item-by-item feeding only *)
Theorem batch_size_refuted : exists bound ops,
  Z.of_nat (length (crun_ops bound ops)) > Z.max bound 0.
Proof. exists 1, [CBatch [1%N; 2%N; 3%N]]. vm_compute. reflexivity. Qed.

(* "fewer than": with exactly [bound] distinct values seen, a repeat is already refused *)
Theorem exact_at_bound_refuted : exists bound l v,
  Z.of_nat (distinct l) = bound /\ get (crun bound l) v <> occ v l.
Proof. exists 2, [1%N; 2%N; 1%N], 1%N. vm_compute. split; [reflexivity|discriminate]. Qed.
