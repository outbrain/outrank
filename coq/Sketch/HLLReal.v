(* C14 — meaning over R of the linear-counting term returned by __len__ in the cold phase, and the
   conditional 2 % window: the estimate is within 2 % of n as soon as the number z of empty registers
   lies in the window  m e^(-1.02 n/m) <= z <= m e^(-(0.98 n + 1)/m).
   Whether z lies there is a property of the hash function on the inserted set (see C14_hash_matters);
   the harness measures z on the generated value families. *)
From Coq Require Import Reals Lra Lia.
From Outrank Require Import Sketch.HLL Sketch.HLLProofs.
Open Scope R_scope.

(* np.ceil *)
Definition ceilZ (x : R) : Z := (1 - up (- x))%Z.

Lemma ceilZ_spec x : IZR (ceilZ x) - 1 < x <= IZR (ceilZ x).
Proof. unfold ceilZ. destruct (archimed (- x)) as [H1 H2]. rewrite minus_IZR. lra. Qed.

(* int(np.ceil(m * np.log(m / z))) - 1 *)
Definition LC (m z : R) : R := IZR (ceilZ (m * ln (m / z))) - 1.

(* __len__ as a real number: exact size while warm; 2^p when no register is empty; LC otherwise *)
Definition lenR (p : N) (t : lent) : R :=
  match t with
  | Exact n => INR n
  | Est z => if N.eqb z 0 then IZR (Z.of_N (2 ^ p)) else LC (IZR (Z.of_N (2 ^ p))) (IZR (Z.of_N z))
  end.

Lemma ln_le' x y : 0 < x -> x <= y -> ln x <= ln y.
Proof. intros Hx [H|H]; [left; now apply ln_increasing|right; now f_equal]. Qed.

(* comparing z with m e^(-c/m) is comparing m ln(m/z) with c *)
Lemma ln_window m z c : 0 < m -> 0 < z ->
  (m * exp (- c / m) <= z -> m * ln (m / z) <= c) /\ (z <= m * exp (- c / m) -> c <= m * ln (m / z)).
Proof.
  intros Hm Hz.
  assert (E : m * ln (m / z) = m * ln m - m * ln z).
  { unfold Rdiv. rewrite ln_mult, ln_Rinv by (try assumption; now apply Rinv_0_lt_compat). ring. }
  assert (Hp : 0 < m * exp (- c / m)) by (apply Rmult_lt_0_compat; [exact Hm|apply exp_pos]).
  assert (S : m * ln (m * exp (- c / m)) = m * ln m - c).
  { rewrite ln_mult, ln_exp by (try exact Hm; apply exp_pos). field. lra. }
  split; intros H.
  - apply (ln_le' _ _ Hp) in H. apply (Rmult_le_compat_l m) in H; lra.
  - apply (ln_le' _ _ Hz) in H. apply (Rmult_le_compat_l m) in H; lra.
Qed.

(* the estimate lies between the bounds that a window for the number of empty registers implies *)
Theorem LC_between m z lo hi : 0 < m -> 0 < z ->
  m * exp (- hi / m) <= z -> z <= m * exp (- (lo + 1) / m) -> lo <= LC m z <= hi.
Proof.
  intros Hm Hz H1 H2.
  apply (proj1 (ln_window m z _ Hm Hz)) in H1. apply (proj2 (ln_window m z _ Hm Hz)) in H2.
  unfold LC. pose proof (ceilZ_spec (m * ln (m / z))) as [C1 C2]. lra.
Qed.

Corollary LC_window m z n : 0 < m -> 0 < z ->
  m * exp (- (102 / 100 * n) / m) <= z -> z <= m * exp (- (98 / 100 * n + 1) / m) ->
  Rabs (LC m z - n) <= 2 / 100 * n.
Proof. intros Hm Hz H1 H2. pose proof (LC_between m z _ _ Hm Hz H1 H2). apply Rabs_le. lra. Qed.

(* the window, read on the model: z = m - #touched buckets, n = number of distinct inserted values *)
Theorem window_2pct p W width hash l :
  (forall v, (0 < rho p width hash v)%N) -> (W < distinct l)%nat ->
  let n := INR (distinct l) in
  let mR := IZR (Z.of_N (2 ^ p)) in
  let z := IZR (Z.of_N (2 ^ p - N.of_nat (touched p hash l))) in
  0 < z ->
  mR * exp (- (102 / 100 * n) / mR) <= z -> z <= mR * exp (- (98 / 100 * n + 1) / mR) ->
  Rabs (lenR p (len (run p W width hash l)) - n) <= 2 / 100 * n.
Proof.
  intros Hpos Hd n mR z Hz H1 H2.
  rewrite (estimate p W width hash l Hpos Hd). unfold HLL.m. cbn [lenR].
  destruct (N.eqb_spec (2 ^ p - N.of_nat (touched p hash l)) 0) as [E0|E0].
  - exfalso. unfold z in Hz. rewrite E0 in Hz. simpl in Hz. lra.
  - apply LC_window; try assumption. unfold mR. apply IZR_lt.
    assert (H : (2 ^ p <> 0)%N) by (apply N.pow_nonzero; lia). lia.
Qed.
