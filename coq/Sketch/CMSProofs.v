(* C15 — proofs about the count-min model of Sketch/CMS.v.
   Everything is proved for an arbitrary hash oracle [pre], arbitrary depth and width >= 1. *)
From Coq Require Import List ZArith NArith Bool Lia.
From Outrank Require Import Common.ListFacts Sketch.CMS.
Import ListNotations.
Open Scope Z_scope.

Lemma minl_le l : forall a, minl a l <= a /\ Forall (fun b => minl a l <= b) l.
Proof.
  induction l as [|b l IH]; intros a; cbn [minl]; [split; [lia|constructor]|].
  destruct (IH (Z.min a b)) as [H1 H2]. split; [lia|]. constructor; [lia|exact H2].
Qed.
Lemma minl_in l : forall a, minl a l = a \/ In (minl a l) l.
Proof.
  induction l as [|b l IH]; intros a; cbn [minl]; [now left|].
  destruct (IH (Z.min a b)) as [H|H].
  - rewrite H. destruct (Z.min_spec a b) as [[_ E]|[_ E]]; rewrite E; [now left|right; now left].
  - right. now right.
Qed.

Lemma in_combine_map {A B} (f : A -> B) l x q : In (x, q) (combine l (map f l)) -> q = f x.
Proof. induction l as [|y l IH]; cbn [map combine]; [contradiction|]. intros [E|H]; [now inversion E|now apply IH]. Qed.

(* weight of the stream elements selected by [f]; true_weight, total and cell_weight are instances *)
Definition wsum (f : N * Z -> bool) (s : list (N * Z)) : Z :=
  fold_right (fun e a => if f e then snd e + a else a) 0 s.

Lemma wsum_app f s s' : wsum f (s ++ s') = wsum f s + wsum f s'.
Proof. unfold wsum. induction s as [|e s IH]; cbn [app fold_right]; [lia|]. rewrite IH. destruct (f e); lia. Qed.

Lemma wsum_le f g s : nonneg s -> (forall e, f e = true -> g e = true) -> wsum f s <= wsum g s.
Proof.
  intros Hn Hfg. unfold wsum. induction Hn as [|e s Hd _ IH]; cbn [fold_right]; [lia|].
  destruct (f e) eqn:E; [rewrite (Hfg e E); lia|]. destruct (g e); lia.
Qed.

Section WithPre.
  Variables depth width : nat.
  Variable pre : nat -> N -> N.
  Hypothesis width_pos : (1 <= width)%nat.

  Notation loc := (loc width pre).
  Notation add := (add width pre).
  Notation step := (step width pre).
  Notation init := (init depth width).
  Notation run := (run depth width pre).
  Notation trace := (trace width pre).
  Notation query := (query depth width pre).
  Notation probes := (probes depth width pre).
  Notation cell_weight := (cell_weight width pre).

  Lemma loc_lt i x : (loc i x < width)%nat.
  Proof.
    unfold CMS.loc. assert (H : (N.of_nat width <> 0)%N) by lia.
    pose proof (N.mod_lt (pre i x) (N.of_nat width) H). lia.
  Qed.

  Lemma bump_length r : forall j d, length (bump r j d) = length r.
  Proof. induction r as [|a r IH]; intros [|j] d; cbn [bump length]; try reflexivity. now rewrite IH. Qed.

  Lemma bump_nth r : forall j' j d, (j' < length r)%nat ->
    nth j (bump r j' d) 0 = if Nat.eqb j j' then nth j r 0 + d else nth j r 0.
  Proof.
    induction r as [|a r IH]; intros j' j d H; cbn [length] in H; [lia|].
    destruct j' as [|j']; destruct j as [|j]; cbn [bump nth Nat.eqb]; try reflexivity.
    apply IH. lia.
  Qed.

  Lemma sumz_bump r : forall j d, (j < length r)%nat -> sumz (bump r j d) = sumz r + d.
  Proof.
    induction r as [|a r IH]; intros j d H; cbn [length] in H; [lia|].
    destruct j as [|j]; cbn [bump sumz fold_right].
    - fold (sumz r). lia.
    - fold (sumz (bump r j d)). fold (sumz r). rewrite IH by lia. lia.
  Qed.

  Lemma add_rows_length M : forall k x d, length (add_rows width pre k M x d) = length M.
  Proof. induction M as [|r M IH]; intros k x d; cbn [add_rows length]; [reflexivity|]. now rewrite IH. Qed.

  Lemma add_rows_nth M : forall k i x d, (i < length M)%nat ->
    nth i (add_rows width pre k M x d) [] = bump (nth i M []) (loc (k + i) x) d.
  Proof.
    induction M as [|r M IH]; intros k i x d H; cbn [length] in H; [lia|].
    destruct i as [|i]; cbn [add_rows nth].
    - now rewrite Nat.add_0_r.
    - rewrite IH by lia. now rewrite Nat.add_succ_r.
  Qed.

  Definition wf (M : matrix) : Prop :=
    length M = depth /\ forall i, (i < depth)%nat -> length (nth i M []) = width.

  Lemma add_wf M x d : wf M -> wf (add M x d).
  Proof.
    intros [HL HR]. split.
    - unfold CMS.add. now rewrite add_rows_length.
    - intros i Hi. unfold CMS.add. rewrite add_rows_nth by lia. rewrite bump_length. now apply HR.
  Qed.

  Lemma cell_add M x d i j : wf M -> (i < depth)%nat ->
    cell (add M x d) i j = if Nat.eqb j (loc i x) then cell M i j + d else cell M i j.
  Proof.
    intros [HL HR] Hi. unfold cell, CMS.add. rewrite add_rows_nth by lia. cbn [Nat.add].
    apply bump_nth. rewrite HR by exact Hi. apply loc_lt.
  Qed.

  Lemma rowsum_add M x d i : wf M -> (i < depth)%nat -> rowsum (add M x d) i = rowsum M i + d.
  Proof.
    intros [HL HR] Hi. unfold rowsum, CMS.add. rewrite add_rows_nth by lia. cbn [Nat.add].
    apply sumz_bump. rewrite HR by exact Hi. apply loc_lt.
  Qed.

  Definition runs (s : list (N * Z)) (M : matrix) : matrix :=
    fold_left (fun M e => add M (fst e) (snd e)) s M.

  Lemma step_runs M o : step M o = runs (flat1 o) M.
  Proof.
    destruct o as [x d|xs d]; cbn [CMS.step flat1 runs fold_left fst snd]; [reflexivity|].
    revert M. induction xs as [|a xs IH]; intros M; cbn [fold_left map fst snd]; [reflexivity|]. apply IH.
  Qed.

  Lemma cw_app i j s s' : cell_weight i j (s ++ s') = cell_weight i j s + cell_weight i j s'.
  Proof. exact (wsum_app (fun e => Nat.eqb j (loc i (fst e))) s s'). Qed.
  Lemma total_app s s' : total (s ++ s') = total s + total s'.
  Proof. exact (wsum_app (fun _ => true) s s'). Qed.
  Lemma tw_app x s s' : true_weight x (s ++ s') = true_weight x s + true_weight x s'.
  (* the statement records the section's width hypothesis although the sum does not need it *)
  Proof using width_pos. exact (wsum_app (fun e => N.eqb (fst e) x) s s'). Qed.

  (* the invariant: every cell holds the weight of the stream elements hashing to it *)
  Definition good (s : list (N * Z)) (M : matrix) : Prop :=
    wf M /\ (forall i j, (i < depth)%nat -> cell M i j = cell_weight i j s)
         /\ (forall i, (i < depth)%nat -> rowsum M i = total s).

  Lemma sumz_repeat0 n : sumz (repeat 0 n) = 0.
  Proof. induction n as [|n IH]; cbn [repeat sumz fold_right]; [reflexivity|]. fold (sumz (repeat 0 n)). lia. Qed.

  Lemma good_init : good [] init.
  Proof.
    unfold CMS.init. repeat split.
    - apply repeat_length.
    - intros i Hi. rewrite nth_repeat_lt by exact Hi. apply repeat_length.
    - intros i j Hi. unfold cell. rewrite nth_repeat_lt by exact Hi. apply nth_repeat.
    - intros i Hi. unfold rowsum. rewrite nth_repeat_lt by exact Hi. apply sumz_repeat0.
  Qed.

  Lemma good_add s M x d : good s M -> good (s ++ [(x, d)]) (add M x d).
  Proof.
    intros (Hw & Hc & Hr). repeat split.
    - apply (add_wf M x d Hw).
    - apply (add_wf M x d Hw).
    - intros i j Hi. rewrite cell_add by assumption. rewrite cw_app, Hc by exact Hi.
      change (cell_weight i j [(x, d)]) with (if Nat.eqb j (loc i x) then d + 0 else 0).
      destruct (Nat.eqb j (loc i x)); lia.
    - intros i Hi. rewrite rowsum_add by assumption. rewrite total_app, Hr by exact Hi.
      change (total [(x, d)]) with (d + 0). lia.
  Qed.

  Lemma good_runs s' s M : good s M -> good (s ++ s') (runs s' M).
  Proof.
    apply (fold_left_snoc_inv good (fun M e => add M (fst e) (snd e))). intros l t [x d]. apply good_add.
  Qed.

  Lemma good_step s M o : good s M -> good (s ++ flat1 o) (step M o).
  Proof. intros H. rewrite step_runs. apply good_runs. exact H. Qed.

  Theorem good_run ops : good (flat ops) (run ops).
  Proof. exact (fold_left_flat_inv good step flat1 good_step ops [] init good_init). Qed.

  Lemma cw_ge_true s x i : nonneg s -> true_weight x s <= cell_weight i (loc i x) s.
  Proof.
    intros Hn. apply (wsum_le (fun e => N.eqb (fst e) x) (fun e => Nat.eqb (loc i x) (loc i (fst e))) s Hn).
    intros e E. apply N.eqb_eq in E. rewrite E. apply Nat.eqb_refl.
  Qed.
  Lemma cw_le_total s i j : nonneg s -> cell_weight i j s <= total s.
  Proof. intros Hn. exact (wsum_le (fun e => Nat.eqb j (loc i (fst e))) (fun _ => true) s Hn (fun _ _ => eq_refl)). Qed.
  Lemma cw_nonneg s i j : nonneg s -> 0 <= cell_weight i j s.
  Proof.
    unfold CMS.cell_weight.
    induction 1 as [|e s Hd _ IH]; cbn [fold_right]; [lia|].
    destruct (Nat.eqb j (loc i (fst e))); lia.
  Qed.
  (* a cell no stream element hashes to holds 0 (justifies the sparse comparison of matrices) *)
  Lemma cw_support s i j : cell_weight i j s <> 0 -> exists e, In e s /\ loc i (fst e) = j.
  Proof.
    unfold CMS.cell_weight.
    induction s as [|e s IH]; cbn [fold_right]; [lia|].
    destruct (Nat.eqb_spec j (loc i (fst e))) as [E|E]; intros H.
    - exists e. split; [now left|now symmetry].
    - destruct (IH H) as (e' & Hin & Hl). exists e'. split; [now right|exact Hl].
  Qed.

  Theorem query_defined M x : (1 <= depth)%nat -> exists q, query M x = Some q.
  Proof.
    clear width_pos.
    intros Hd. unfold CMS.query, CMS.probes. destruct depth as [|n]; [lia|]. cbn [seq map]. eexists. reflexivity.
  Qed.

  (* the estimate is the minimum of the probed cells (one per row, at the update-side location) *)
  Theorem query_is_min M x q : query M x = Some q ->
    In q (probes M x) /\ Forall (fun b => q <= b) (probes M x).
  Proof.
    clear width_pos.
    unfold CMS.query. destruct (probes M x) as [|a r]; [discriminate|]. intros [= <-].
    destruct (minl_le r a) as [H1 H2]. split.
    - destruct (minl_in r a) as [H|H]; [rewrite H; now left|now right].
    - constructor; assumption.
  Qed.

  (* the estimate is one of the probed cells, and every probed cell lies between the item's weight and the total *)
  Lemma good_query_bounds s M x q : nonneg s -> good s M -> query M x = Some q -> true_weight x s <= q <= total s.
  Proof.
    intros Hn (_ & Hc & _) Hq. destruct (query_is_min M x q Hq) as [Hin _].
    unfold CMS.probes in Hin. apply in_map_iff in Hin. destruct Hin as (i & <- & Hi). apply in_seq in Hi.
    rewrite Hc by lia. pose proof (cw_ge_true s x i Hn). pose proof (cw_le_total s i (loc i x) Hn). lia.
  Qed.

  Theorem query_bounds ops x q : nonneg (flat ops) -> query (run ops) x = Some q ->
    true_weight x (flat ops) <= q <= total (flat ops).
  Proof. intros Hn. apply good_query_bounds; [exact Hn|apply good_run]. Qed.

  Theorem rows_total ops i : (i < depth)%nat -> rowsum (run ops) i = total (flat ops).
  Proof. intros Hi. destruct (good_run ops) as (_ & _ & Hr). now apply Hr. Qed.

  Theorem cell_char ops i j : (i < depth)%nat -> cell (run ops) i j = cell_weight i j (flat ops).
  Proof. intros Hi. destruct (good_run ops) as (_ & Hc & _). now apply Hc. Qed.

  Theorem cell_support ops i j : (i < depth)%nat -> cell (run ops) i j <> 0 ->
    exists e, In e (flat ops) /\ loc i (fst e) = j.
  Proof. intros Hi H. rewrite cell_char in H by exact Hi. now apply cw_support. Qed.

  Theorem shape ops : length (run ops) = depth /\ forall i, (i < depth)%nat -> length (nth i (run ops) []) = width.
  Proof. destruct (good_run ops) as (Hw & _). exact Hw. Qed.

  Definition clause1 (items : list N) (s : list (N * Z)) (qs rs : list Z) : Prop :=
    length qs = length items /\
    (forall x q, In (x, q) (combine items qs) -> true_weight x s <= q <= total s) /\
    length rs = depth /\ (forall r, In r rs -> r = total s).

  Lemma check1_sound items s qs rs : check1 depth items s qs rs = true -> clause1 items s qs rs.
  Proof.
    clear width_pos.
    unfold check1, clause1. intros H.
    apply andb_prop in H. destruct H as [H H4]. apply andb_prop in H. destruct H as [H H3].
    apply andb_prop in H. destruct H as [H1 H2].
    apply Nat.eqb_eq in H1. apply Nat.eqb_eq in H3. rewrite forallb_forall in H2, H4.
    repeat split; try assumption.
    - specialize (H2 (x, q) H). cbn [fst snd] in H2. lia.
    - specialize (H2 (x, q) H). cbn [fst snd] in H2. lia.
    - intros r Hr. specialize (H4 r Hr). lia.
  Qed.

  Definition model_obs (items : list N) (M : matrix) : list Z * list Z :=
    (map (fun x => oz (query M x)) items, map (fun i => rowsum M i) (seq 0 depth)).

  Lemma check1_model items s M : (1 <= depth)%nat -> nonneg s -> good s M ->
    check1 depth items s (fst (model_obs items M)) (snd (model_obs items M)) = true.
  Proof.
    intros Hd Hn (Hw & Hc & Hr). unfold check1, model_obs. cbn [fst snd].
    rewrite !map_length, seq_length, !Nat.eqb_refl. cbn [andb].
    apply andb_true_intro. split; [rewrite andb_true_r|].
    - apply forallb_forall. intros [x q] Hin. cbn [fst snd].
      apply in_combine_map in Hin. subst q. destruct (query_defined M x Hd) as [q Eq]. rewrite Eq. cbn [oz].
      pose proof (good_query_bounds s M x q Hn (conj Hw (conj Hc Hr)) Eq). lia.
    - apply forallb_forall. intros r Hin. apply in_map_iff in Hin. destruct Hin as (i & <- & Hi).
      apply in_seq in Hi. rewrite Hr by lia. lia.
  Qed.

  Lemma checkb_model items ops : (1 <= depth)%nat -> forall s M, nonneg (s ++ flat ops) -> good s M ->
    checkb depth items s ops (map (model_obs items) (trace M ops)) = true.
  Proof.
    intros Hd. induction ops as [|o ops IH]; intros s M Hn Hg; cbn [CMS.trace map checkb]; [reflexivity|].
    cbn [flat flat_map] in Hn. rewrite app_assoc in Hn.
    assert (Hg' : good (s ++ flat1 o) (step M o)) by (apply good_step; exact Hg).
    assert (Hn' : nonneg (s ++ flat1 o)) by (apply Forall_app in Hn; tauto).
    pose proof (check1_model items _ _ Hd Hn' Hg') as H1.
    destruct (model_obs items (step M o)) as [qs rs] eqn:E. cbn [fst snd] in H1. rewrite H1. cbn [andb].
    apply IH; assumption.
  Qed.

  Theorem model_ok items ops : (1 <= depth)%nat -> nonneg (flat ops) ->
    checkb depth items [] ops (map (model_obs items) (trace init ops)) = true.
  Proof. intros Hd Hn. apply checkb_model; [exact Hd|exact Hn|apply good_init]. Qed.
End WithPre.

(* ---- observation (outside the property): the hash of the code is ADDITIVE in the seed,
        cms_hash(x, seed, width) = (uint32(hash x) + seed) mod width  in 64-bit arithmetic.
        Two items then collide in one row iff they collide in every row, every row holds the same
        multiset of cell values up to a cyclic shift, and all depth probes of an item are equal:
        the minimum over rows is the value of any single row and depth adds no accuracy. ---- *)
Lemma zmod_cancel a b c w : 0 < w -> ((a + c) mod w = (b + c) mod w <-> a mod w = b mod w).
Proof.
  intros Hw. split; intros H.
  - (* subtract c again on both sides, modulo w *)
    replace a with (a + c + - c) by lia. replace b with (b + c + - c) by lia.
    rewrite <- (Z.add_mod_idemp_l (a + c)), <- (Z.add_mod_idemp_l (b + c)) by lia. rewrite H. reflexivity.
  - rewrite (Z.add_mod a c), (Z.add_mod b c), H by lia. reflexivity.
Qed.

Lemma nmod_cancel (a b c w : N) : (w <> 0)%N -> (((a + c) mod w = (b + c) mod w)%N <-> (a mod w = b mod w)%N).
Proof.
  intros Hw.
  pose proof (zmod_cancel (Z.of_N a) (Z.of_N b) (Z.of_N c) (Z.of_N w)) as H.
  rewrite <- !N2Z.inj_add, <- !N2Z.inj_mod in H. rewrite !N2Z.inj_iff in H. apply H; lia.
Qed.

Section Additive.
  Variables depth width : nat.
  Variable h : N -> N.                 (* uint32(hash(x)) *)
  Variable s : nat -> N.               (* hash_seeds[i] *)
  Hypothesis width_pos : (1 <= width)%nat.
  Definition pre_add (i : nat) (x : N) : N := (h x + s i)%N.

  Lemma loc_add_eq i x y :
    loc width pre_add i y = loc width pre_add i x <-> (h y mod N.of_nat width = h x mod N.of_nat width)%N.
  Proof.
    unfold loc, pre_add. rewrite N2Nat.inj_iff. apply nmod_cancel. lia.
  Qed.

  Lemma cw_rows_agree i i' x st :
    cell_weight width pre_add i (loc width pre_add i x) st = cell_weight width pre_add i' (loc width pre_add i' x) st.
  Proof.
    unfold cell_weight. induction st as [|e st IH]; cbn [fold_right]; [reflexivity|]. rewrite IH.
    assert (B : Nat.eqb (loc width pre_add i x) (loc width pre_add i (fst e))
              = Nat.eqb (loc width pre_add i' x) (loc width pre_add i' (fst e))).
    { apply Bool.eq_iff_eq_true. rewrite !Nat.eqb_eq, !loc_add_eq. reflexivity. }
    rewrite B. reflexivity.
  Qed.

  Theorem additive_rows_agree ops x i i' : (i < depth)%nat -> (i' < depth)%nat ->
    cell (run depth width pre_add ops) i (loc width pre_add i x)
    = cell (run depth width pre_add ops) i' (loc width pre_add i' x).
  Proof.
    intros Hi Hi'. rewrite !(cell_char depth width pre_add width_pos) by assumption. apply cw_rows_agree.
  Qed.
End Additive.
