(* C14 — proofs about the HyperLogLog-with-warm-up model of Sketch/HLL.v.
   The hash oracle, p, the warm-up capacity and the width are arbitrary; only the results about touched buckets
   (touched_iff, estimate) ask that every rank is at least 1. *)
From Coq Require Import List NArith ZArith Bool Lia Permutation FinFun.
From Outrank Require Import Common.ListFacts Sketch.HLL.
Import ListNotations.

Lemma updl_length r : forall j x, length (updl r j x) = length r.
Proof. induction r as [|a r IH]; intros [|j] x; cbn [updl length]; try reflexivity. now rewrite IH. Qed.

Lemma updl_nth r : forall j i x, (j < length r)%nat ->
  nth i (updl r j x) 0%N = if Nat.eqb i j then N.max (nth i r 0%N) x else nth i r 0%N.
Proof.
  induction r as [|a r IH]; intros j i x H; cbn [length] in H; [lia|].
  destruct j as [|j]; destruct i as [|i]; cbn [updl nth Nat.eqb]; try reflexivity.
  apply IH. lia.
Qed.

(* the touched buckets, counted two ways *)
Lemma touched_count (B : list nat) n : (forall b, In b B -> b < n)%nat ->
  length (filter (fun j => existsb (Nat.eqb j) B) (seq 0 n)) = length (nodup Nat.eq_dec B).
Proof.
  intros HB. apply NoDup_same_set_length; [apply NoDup_filter, seq_NoDup|].
  intros j. rewrite filter_In, in_seq, (existsb_eqb_In Nat.eqb Nat.eqb_eq). split; [tauto|].
  intros Hj. split; [|exact Hj]. specialize (HB j Hj). lia.
Qed.

Lemma mem_In v s : mem v s = true <-> In v s.
Proof. apply (existsb_eqb_In N.eqb N.eqb_eq). Qed.

Lemma distinct_set l l' : (forall v, In v l <-> In v l') -> distinct l = distinct l'.
Proof.
  intros H. unfold distinct. apply NoDup_same_set_length; [apply NoDup_nodup|]. intros v. rewrite nodup_In. apply H.
Qed.

Lemma distinct_mono l v : (distinct l <= distinct (l ++ [v]))%nat.
Proof. apply nodup_incl_length, incl_appl, incl_refl. Qed.

(* a duplicate-free list holding the values seen so far, after one more value: the checker's list, and the warm-up set *)
Lemma seen_step seen l0 a : NoDup seen -> (forall u, In u seen <-> In u l0) ->
  NoDup (if mem a seen then seen else a :: seen) /\
  forall u, In u (if mem a seen then seen else a :: seen) <-> In u (l0 ++ [a]).
Proof. exact (seen_snoc mem seen l0 a mem_In). Qed.

Section WithHash.
  Variable p : N.
  Variable W : nat.
  Variable width : N.
  Variable hash : N -> N.

  Notation m := (m p).
  Notation mn := (mn p).
  Notation bucket := (bucket p hash).
  Notation rho := (rho p width hash).
  Notation upd := (upd p width hash).
  Notation zero := (zero p).
  Notation convert := (convert p width hash).
  Notation add := (add p W width hash).
  Notation run := (run p W width hash).
  Notation trace := (trace p W width hash).
  Notation maxrank := (maxrank p width hash).
  Notation touched := (touched p hash).

  Lemma bucket_lt v : (bucket v < mn)%nat.
  Proof.
    unfold HLL.bucket, HLL.mn, HLL.m. rewrite N.sub_1_r, <- N.ones_equiv, N.land_ones.
    assert (H : (2 ^ p <> 0)%N) by (apply N.pow_nonzero; lia).
    pose proof (N.mod_lt (hash v) (2 ^ p) H). lia.
  Qed.

  Lemma upd_length r v : length (upd r v) = length r.
  Proof. unfold HLL.upd. apply updl_length. Qed.

  Lemma upd_nth r v j : length r = mn ->
    nth j (upd r v) 0%N = if Nat.eqb j (bucket v) then N.max (nth j r 0%N) (rho v) else nth j r 0%N.
  Proof. intros H. unfold HLL.upd. apply updl_nth. rewrite H. apply bucket_lt. Qed.

  Lemma maxrank_in j l v : In v l -> bucket v = j -> (rho v <= maxrank j l)%N.
  Proof.
    induction l as [|a l IH]; intros Hin Hb; [contradiction|]. cbn [HLL.maxrank].
    destruct Hin as [->|Hin].
    - rewrite Hb, Nat.eqb_refl. lia.
    - specialize (IH Hin Hb). destruct (Nat.eqb j (bucket a)); lia.
  Qed.

  Lemma maxrank_incl j l l' : incl l l' -> (maxrank j l <= maxrank j l')%N.
  Proof.
    induction l as [|a l IH]; intros Hi; cbn [HLL.maxrank]; [lia|].
    assert (Hi' : incl l l') by (intros z Hz; apply Hi; now right). specialize (IH Hi').
    destruct (Nat.eqb_spec j (bucket a)) as [E|E]; [|exact IH].
    pose proof (maxrank_in j l' a (Hi a (or_introl eq_refl)) (eq_sym E)). lia.
  Qed.

  (* the per-bucket maximum depends only on the SET of values *)
  Lemma maxrank_set j l l' : (forall v, In v l <-> In v l') -> maxrank j l = maxrank j l'.
  Proof. intros H. apply N.le_antisymm; apply maxrank_incl; intros v Hv; apply H; exact Hv. Qed.

  Lemma maxrank_snoc j l v :
    maxrank j (l ++ [v]) = if Nat.eqb j (bucket v) then N.max (maxrank j l) (rho v) else maxrank j l.
  Proof.
    induction l as [|a l IH]; cbn [app HLL.maxrank]; [destruct (Nat.eqb j (bucket v)); lia|].
    rewrite IH. destruct (Nat.eqb j (bucket a)), (Nat.eqb j (bucket v)); lia.
  Qed.

  (* [r] is the register array of the collection [l]: one register per bucket, holding the largest rank seen there *)
  Definition regs_of (l r : list N) : Prop := length r = mn /\ forall j, nth j r 0%N = maxrank j l.

  Lemma regs_ext l l' r r' : regs_of l r -> regs_of l' r' -> (forall j, maxrank j l = maxrank j l') -> r = r'.
  Proof.
    intros [HL Hr] [HL' Hr'] H. apply (nth_ext _ _ 0%N 0%N); [congruence|]. intros j _. rewrite Hr, Hr'. apply H.
  Qed.

  Lemma regs_same_set l l' r : (forall v, In v l <-> In v l') -> regs_of l r -> regs_of l' r.
  Proof. intros Hs [HL Hr]. split; [exact HL|]. intros j. rewrite Hr. apply maxrank_set, Hs. Qed.

  Lemma regs_upd l r v : regs_of l r -> regs_of (l ++ [v]) (upd r v).
  Proof.
    intros [HL Hr]. split; [rewrite upd_length; exact HL|].
    intros j. rewrite upd_nth by exact HL. rewrite Hr, maxrank_snoc. reflexivity.
  Qed.

  Lemma regs_convert s : regs_of s (convert s).
  Proof.
    unfold HLL.convert. apply fold_left_snoc_inv with (I := regs_of) (l := []); [exact regs_upd|].
    split; [apply repeat_length|]. intros j. apply nth_repeat.
  Qed.

  (* ---- the invariant: exact duplicate-free set while warm; registers = per-bucket maximum over
          the values inserted so far once cold; the phase is decided by the number of distinct values ---- *)
  Definition inv (l : list N) (t : st) : Prop :=
    match t with
    | Warm s => NoDup s /\ (forall v, In v s <-> In v l) /\ (length s <= W)%nat
    | Cold r => regs_of l r /\ (W < distinct l)%nat
    end.

  Lemma inv_step l t v : inv l t -> inv (l ++ [v]) (add t v).
  Proof.
    destruct t as [s|r]; cbn [inv HLL.add].
    - intros (Hnd & Hs & Hlen). generalize (seen_step s l v Hnd Hs). destruct (mem v s); intros [Hnd' Hs'].
      + rewrite orb_true_r. exact (conj Hnd' (conj Hs' Hlen)).
      + rewrite orb_false_r.
        destruct (Nat.ltb_spec (length s) W) as [El|El]; cbn [inv].
        * split; [exact Hnd'|]. split; [exact Hs'|]. cbn [length]. lia.
        * (* conversion: the registers of the warm-up set, then the value that triggered it *)
          split.
          -- apply (regs_same_set (s ++ [v])); [|apply regs_upd, regs_convert].
             intros x. rewrite <- Hs', in_app_iff. cbn [In]. tauto.
          -- unfold distinct. rewrite <- (NoDup_same_set_length N.eq_dec (v :: s) (l ++ [v]) Hnd' Hs'). cbn [length]. lia.
    - intros (Hr & Hd). split; [apply regs_upd, Hr|]. pose proof (distinct_mono l v). lia.
  Qed.

  Lemma inv_nil : inv [] (Warm []).
  Proof. cbn. repeat split; try constructor; try tauto; lia. Qed.

  Theorem inv_run l : inv l (run l).
  Proof. unfold HLL.run. apply fold_left_snoc_inv with (I := inv) (l := []); [exact inv_step|exact inv_nil]. Qed.

  Lemma inv_exact l t : inv l t -> (distinct l <= W)%nat -> len t = Exact (distinct l).
  Proof.
    destruct t as [s|r]; cbn [inv len].
    - intros (Hnd & Hs & _) _. f_equal. now apply NoDup_same_set_length.
    - intros (_ & H) H'. lia.
  Qed.

  Lemma inv_cold l t : inv l t -> (W < distinct l)%nat -> exists r, t = Cold r /\ regs_of l r.
  Proof.
    destruct t as [s|r]; cbn [inv].
    - intros (Hnd & Hs & HL) H. unfold distinct in H. rewrite <- (NoDup_same_set_length N.eq_dec s l Hnd Hs) in H. lia.
    - intros (Hr & _) _. exists r. split; [reflexivity|exact Hr].
  Qed.

  (* adding a value seen before leaves the whole state unchanged, in both phases *)
  Lemma add_seen l t v : inv l t -> In v l -> add t v = t.
  Proof.
    destruct t as [s|r]; cbn [inv HLL.add].
    - intros (_ & Hs & _) Hin. apply Hs in Hin. apply mem_In in Hin. rewrite Hin, orb_true_r. reflexivity.
    - intros (Hr & _) Hin. f_equal. apply (regs_ext (l ++ [v]) l); [apply regs_upd, Hr|exact Hr|].
      intros j. apply maxrank_set. intros x. rewrite in_app_iff. cbn [In]. split; [intros [H|[<-|[]]]; assumption|auto].
  Qed.

  Lemma run_snoc l v : run (l ++ [v]) = add (run l) v.
  Proof. unfold HLL.run. now rewrite fold_left_app. Qed.

  Theorem exact_len l : (distinct l <= W)%nat -> len (run l) = Exact (distinct l).
  Proof. apply inv_exact. apply inv_run. Qed.

  Theorem dup_state l v : In v l -> run (l ++ [v]) = run l.
  Proof. intros H. rewrite run_snoc. apply (add_seen l); [apply inv_run|exact H]. Qed.

  Theorem cold_regs l : (W < distinct l)%nat -> exists r, run l = Cold r /\ regs_of l r.
  Proof. apply inv_cold. apply inv_run. Qed.

  Lemma run_cold_inv l r : run l = Cold r -> regs_of l r /\ (W < distinct l)%nat.
  Proof. intros E. pose proof (inv_run l) as H. rewrite E in H. exact H. Qed.

  Lemma cold_ext l l' : (W < distinct l)%nat -> (W < distinct l')%nat ->
    (forall j, maxrank j l = maxrank j l') -> run l = run l'.
  Proof.
    intros Hd Hd' H. destruct (cold_regs l Hd) as (r & E & Hr). destruct (cold_regs l' Hd') as (r' & E' & Hr').
    rewrite E, E'. f_equal. exact (regs_ext l l' r r' Hr Hr' H).
  Qed.

  (* after the conversion the registers are a function of the SET of inserted values *)
  Theorem regs_set l l' : (forall v, In v l <-> In v l') -> (W < distinct l)%nat -> run l = run l'.
  Proof.
    intros Hs Hd. apply cold_ext; [exact Hd|rewrite <- (distinct_set l l' Hs); exact Hd|].
    intros j. apply maxrank_set, Hs.
  Qed.

  Theorem len_set l l' : (forall v, In v l <-> In v l') -> len (run l) = len (run l').
  Proof.
    intros Hs. destruct (Nat.le_gt_cases (distinct l) W) as [H|H].
    - rewrite exact_len by exact H. rewrite (distinct_set l l' Hs) in *. now rewrite exact_len.
    - now rewrite (regs_set l l' Hs H).
  Qed.

  Theorem order_len l l' : Permutation l l' -> len (run l) = len (run l').
  Proof.
    intros HP. apply len_set. intros v. split; [apply Permutation_in; exact HP|apply Permutation_in; now symmetry].
  Qed.

  Lemma maxrank_touched j l : (forall v, (0 < rho v)%N) ->
    (maxrank j l <> 0%N <-> exists v, In v l /\ bucket v = j).
  Proof.
    intros Hpos. induction l as [|a l IH]; cbn [HLL.maxrank].
    - split; [congruence|intros (v & [] & _)].
    - destruct (Nat.eqb_spec j (bucket a)) as [E|E].
      + split; [intros _; exists a; split; [now left|now symmetry]|]. intros _. specialize (Hpos a). lia.
      + rewrite IH. split; intros (v & Hin & Hb).
        * exists v. split; [now right|exact Hb].
        * destruct Hin as [->|Hin]; [congruence|]. exists v. split; assumption.
  Qed.

  Theorem touched_iff l r j : (forall v, (0 < rho v)%N) -> run l = Cold r ->
    (nth j r 0%N <> 0%N <-> exists v, In v l /\ bucket v = j).
  Proof.
    intros Hpos E. destruct (run_cold_inv l r E) as [[_ Hr] _]. rewrite Hr. now apply maxrank_touched.
  Qed.

  Lemma existsb_bucket j l : existsb (Nat.eqb j) (map bucket l) = true <-> exists v, In v l /\ bucket v = j.
  Proof.
    rewrite (existsb_eqb_In Nat.eqb Nat.eqb_eq), in_map_iff. split; intros (v & H1 & H2); exists v; split; assumption.
  Qed.

  Lemma zeros_touched l r : (forall v, (0 < rho v)%N) -> regs_of l r -> zeros r = (m - N.of_nat (touched l))%N.
  Proof.
    (* read r as its registers at the positions seq 0 mn; the zero ones are the positions no value falls in,
       the complement of the touched buckets among mn positions *)
    intros Hpos [HL Hr]. unfold zeros. rewrite <- (map_nth_seq r 0%N) at 1. rewrite filter_map_comm, map_length, HL.
    rewrite (filter_ext (fun a => N.eqb 0 (nth a r 0%N)) (fun j => negb (existsb (Nat.eqb j) (map bucket l)))).
    - pose proof (filter_negb_length (fun j => existsb (Nat.eqb j) (map bucket l)) (seq 0 mn)) as Hc.
      rewrite seq_length in Hc. rewrite (touched_count (map bucket l) mn) in Hc.
      + fold (touched l) in Hc. unfold HLL.mn in *. lia.
      + intros b Hb. apply in_map_iff in Hb. destruct Hb as (v & <- & _). apply bucket_lt.
    - intros j. rewrite Hr. destruct (existsb (Nat.eqb j) (map bucket l)) eqn:X; cbn [negb].
      + apply existsb_bucket in X. apply (maxrank_touched j l Hpos) in X. apply N.eqb_neq. congruence.
      + apply N.eqb_eq. destruct (N.eq_dec (maxrank j l) 0) as [E0|E0]; [now symmetry|].
        apply (maxrank_touched j l Hpos) in E0. apply existsb_bucket in E0. congruence.
  Qed.

  Theorem estimate l : (forall v, (0 < rho v)%N) -> (W < distinct l)%nat ->
    len (run l) = Est (m - N.of_nat (touched l))%N.
  Proof.
    intros Hpos Hd. destruct (cold_regs l Hd) as (r & E & Hr). rewrite E. cbn [len]. f_equal.
    now apply zeros_touched.
  Qed.

  (* rank >= 1 for a b-bit hash as soon as width + p > b (the code: 32-bit hash, width = 64 - p) *)
  Lemma rho_pos b : (p <= b)%N -> (b < width + p)%N -> (forall v, (hash v < 2 ^ b)%N) ->
    forall v, (0 < rho v)%N.
  Proof.
    intros Hp Hw Hh v. unfold HLL.rho. rewrite N.shiftr_div_pow2.
    assert (Hq : (hash v / 2 ^ p < 2 ^ (b - p))%N).
    { apply N.div_lt_upper_bound; [apply N.pow_nonzero; lia|].
      rewrite <- N.pow_add_r. replace (p + (b - p))%N with b by lia. apply Hh. }
    assert (Hs : (N.size (hash v / 2 ^ p) <= b - p)%N).
    { destruct (N.eq_dec (hash v / 2 ^ p) 0) as [E|E]; [rewrite E; cbn; lia|].
      rewrite N.size_log2 by exact E. apply N.le_succ_l. apply N.log2_lt_pow2; [apply N.neq_0_lt_0; exact E|exact Hq]. }
    lia.
  Qed.

  Definition clause (l1 : list N) (v : N) (o1 : list Z) (x prev0 : Z) : Prop :=
    (In v l1 -> x = last o1 prev0) /\
    ((distinct (l1 ++ [v]) <= W)%nat -> x = Z.of_nat (distinct (l1 ++ [v]))).

  Lemma checkb_model (lc : N -> Z) l : forall seen l0 t, inv l0 t -> NoDup seen -> (forall u, In u seen <-> In u l0) ->
    forallb (fun b => b) (checkb W seen (lenZ lc t) l (map (lenZ lc) (trace t l))) = true.
  Proof.
    induction l as [|v l IH]; intros seen l0 t Hi Hnd Hs; cbn [HLL.trace map checkb forallb]; [reflexivity|].
    destruct (seen_step seen l0 v Hnd Hs) as [Hnd' Hs'].
    set (seen' := if mem v seen then seen else v :: seen) in *.
    pose proof (inv_step l0 t v Hi) as Hi'.
    apply andb_true_intro. split; [apply andb_true_intro; split|].
    - destruct (mem v seen) eqn:Em; [|reflexivity]. apply mem_In in Em. apply Hs in Em.
      rewrite (add_seen l0 t v Hi Em). lia.
    - destruct (Nat.leb_spec (length seen') W) as [HW|HW]; [|reflexivity].
      rewrite (NoDup_same_set_length N.eq_dec seen' (l0 ++ [v]) Hnd' Hs') in *. fold (distinct (l0 ++ [v])) in *.
      unfold HLL.lenZ. rewrite (inv_exact _ _ Hi' HW). lia.
    - apply (IH seen' (l0 ++ [v]) (add t v) Hi' Hnd' Hs').
  Qed.

  Theorem model_ok (lc : N -> Z) l :
    forallb (fun b => b) (checkb W [] 0%Z l (map (lenZ lc) (trace (Warm []) l))) = true.
  Proof.
    change 0%Z with (lenZ lc (Warm [])).
    apply (checkb_model lc l [] [] (Warm []) inv_nil (NoDup_nil _)). intros u. tauto.
  Qed.

  Lemma trace_spec l : forall t, trace t l = map (fun k => fold_left add (firstn (S k) l) t) (seq 0 (length l)).
  Proof.
    induction l as [|v l IH]; intros t; cbn [HLL.trace length seq map]; [reflexivity|].
    f_equal. rewrite IH, <- seq_shift, map_map. reflexivity.
  Qed.
End WithHash.

Lemma checkb_sound W l : forall seen prev o l0, NoDup seen -> (forall u, In u seen <-> In u l0) ->
  forallb (fun b => b) (checkb W seen prev l o) = true ->
  forall l1 v l2 o1 x o2, l = l1 ++ v :: l2 -> o = o1 ++ x :: o2 -> length o1 = length l1 ->
    (In v (l0 ++ l1) -> x = last o1 prev) /\
    ((distinct (l0 ++ l1 ++ [v]) <= W)%nat -> x = Z.of_nat (distinct (l0 ++ l1 ++ [v]))).
Proof.
  induction l as [|a l IH]; intros seen prev o l0 Hnd Hs Hc l1 v l2 o1 x o2 El Eo Hlen.
  - destruct l1; discriminate.
  - destruct o as [|y o]; [destruct o1; discriminate|].
    cbn [checkb forallb] in Hc. apply andb_prop in Hc. destruct Hc as [Hc1 Hc2].
    destruct (seen_step seen l0 a Hnd Hs) as [Hnd' Hs'].
    set (seen' := if mem a seen then seen else a :: seen) in *.
    destruct l1 as [|b l1].
    + destruct o1; [|discriminate]. cbn [app] in *. injection El as <- <-. injection Eo as <- <-.
      rewrite app_nil_r. apply andb_prop in Hc1. destruct Hc1 as [Hd He]. split.
      * intros Hin. apply Hs in Hin. apply mem_In in Hin. rewrite Hin in Hd. cbn [last]. lia.
      * intros HW. unfold distinct in *. rewrite <- (NoDup_same_set_length N.eq_dec seen' (l0 ++ [a]) Hnd' Hs') in *.
        destruct (Nat.leb_spec (length seen') W); [lia|lia].
    + destruct o1 as [|y1 o1]; [discriminate|]. cbn [app length] in *.
      injection El as <- El. injection Eo as <- Eo. injection Hlen as Hlen.
      destruct (IH seen' y o (l0 ++ [a]) Hnd' Hs' Hc2 l1 v l2 o1 x o2 El Eo Hlen) as [H1 H2].
      rewrite <- app_assoc in H1, H2. cbn [app] in H1, H2. split.
      * intros Hin. rewrite last_cons_default. now apply H1.
      * exact H2.
Qed.

Theorem check_sound W l o : forallb (fun b => b) (checkb W [] 0%Z l o) = true ->
  forall l1 v l2 o1 x o2, l = l1 ++ v :: l2 -> o = o1 ++ x :: o2 -> length o1 = length l1 ->
    clause W l1 v o1 x 0%Z.
Proof.
  intros Hc l1 v l2 o1 x o2 El Eo Hlen.
  apply (checkb_sound W l [] 0%Z o [] (NoDup_nil _) (fun u => conj (fun H => H) (fun H => H)) Hc l1 v l2 o1 x o2 El Eo Hlen).
Qed.

(* p = 2 (4 registers), warm-up capacity 2, identity hash: two distinct values, then a repeat of the
   first one -> the old add converts, len stops being exact although only 2 <= W values were seen *)
Theorem prefix_refuted_exact : exists p W width hash l v,
  In v l /\ (distinct l <= W)%nat /\ len (run_old p W width hash (l ++ [v])) <> Exact (distinct l).
Proof.
  exists 2%N, 2%nat, 62%N, (fun v => v), [0%N; 1%N], 0%N.
  split; [now left|]. split; [vm_compute; lia|]. vm_compute. discriminate.
Qed.

(* ... and the value that triggers the conversion is dropped: re-adding it changes len *)
Theorem prefix_refuted_dup : exists p W width hash l v,
  In v l /\ len (run_old p W width hash (l ++ [v])) <> len (run_old p W width hash l).
Proof.
  exists 2%N, 2%nat, 62%N, (fun v => v), [0%N; 1%N; 2%N], 2%N.
  split; [right; right; now left|]. vm_compute. discriminate.
Qed.

(* ---- the 2 % clause is a statement about the hash: with a constant hash every cold sketch has the
        same registers, so whatever integer reading [lc] of the estimate is used, some set is off by
        more than 2 % ---- *)
Definition iota (n : nat) : list N := map N.of_nat (seq 0 n).

Lemma distinct_iota n : distinct (iota n) = n.
Proof.
  unfold distinct, iota. rewrite nodup_fixed_point.
  - now rewrite map_length, seq_length.
  - apply Injective_map_NoDup; [intros a b; apply Nat2N.inj|apply seq_NoDup].
Qed.

Lemma maxrank_const p width l j : l <> [] ->
  maxrank p width (fun _ => 0%N) j l = if Nat.eqb j 0 then width else 0%N.
Proof.
  induction l as [|a l IH]; intros H; [congruence|]. cbn [maxrank].
  assert (Eb : bucket p (fun _ => 0%N) a = 0%nat) by (unfold bucket; rewrite N.land_0_l; reflexivity).
  assert (Er : rho p width (fun _ => 0%N) a = width).
  { unfold rho. rewrite N.shiftr_0_l. cbn. lia. }
  rewrite Eb, Er. destruct l as [|b l].
  - cbn [maxrank]. destruct (Nat.eqb j 0); lia.
  - rewrite IH by discriminate. destruct (Nat.eqb j 0); lia.
Qed.

Theorem hash_matters : forall p W width (lc : N -> Z), exists hash l,
  (W < distinct l)%nat /\
  ~ (50 * Z.abs (lenZ lc (run p W width hash l) - Z.of_nat (distinct l)) <= Z.of_nat (distinct l))%Z.
Proof.
  intros p W width lc. exists (fun _ => 0%N).
  set (l1 := iota (S W)). set (l2 := iota (3 * S W)).
  assert (D1 : distinct l1 = S W) by apply distinct_iota.
  assert (D2 : distinct l2 = (3 * S W)%nat) by apply distinct_iota.
  assert (E : run p W width (fun _ => 0%N) l1 = run p W width (fun _ => 0%N) l2).
  { apply cold_ext; [lia|lia|]. intros j.
    rewrite !maxrank_const; [reflexivity| |]; unfold l1, l2, iota; cbn [Nat.mul seq map]; discriminate. }
  destruct (Z_le_dec (50 * Z.abs (lenZ lc (run p W width (fun _ => 0%N) l1) - Z.of_nat (distinct l1))) (Z.of_nat (distinct l1))) as [H|H].
  - exists l2. split; [lia|]. rewrite <- E, D2. rewrite D1 in H. lia.
  - exists l1. split; [lia|exact H].
Qed.
