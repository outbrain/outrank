(* C13.  Every statistic of Stats/Quality.v is shown to be a function of the concatenated batches (card_is_spec, card_hll_is_spec,
   counter_general, Inv_run), which gives split independence; the counters are association lists, handled through [wf] and [get]. *)
From Coq Require Import List QArith Lia ZifyBool Permutation.
From Outrank Require Import Common.ListFacts Stats.Quality.
From Outrank Require Common.Split.
From Outrank Require Sketch.HLLProofs Sketch.BoundedProofs.
Import ListNotations.
Local Open Scope Z_scope.

Lemma column_app j (b1 b2 : list row) : column j (b1 ++ b2) = column j b1 ++ column j b2.
Proof. apply map_app. Qed.

Lemma column_concat j (bs : list batch) : column j (concat bs) = concat (map (column j) bs).
Proof. unfold column. apply concat_map. Qed.

Section AssocFacts.
  Variable A : Type.
  Variable dec : forall a b : A, {a = b} + {a <> b}.
  Notation al := (list (A * Z)).

  Definition wf (s : al) : Prop := NoDup (map fst s) /\ Forall (fun kc => 0 < snd kc) s.

  Lemma wf_nil : wf [].
  Proof. split; constructor. Qed.

  Lemma get_incr s k k' : get dec (incr dec s k) k' = get dec s k' + (if dec k' k then 1 else 0).
  Proof.
    induction s as [|[a c] s IH]; cbn [incr get].
    - destruct (dec k' k); lia.
    - destruct (dec k a) as [->|Hka]; cbn [get].
      + destruct (dec k' a); lia.
      + destruct (dec k' a) as [->|]; [destruct (dec a k); [congruence|lia]|apply IH].
  Qed.

  Lemma keys_incr s k x : In x (map fst (incr dec s k)) <-> x = k \/ In x (map fst s).
  Proof.
    induction s as [|[a c] s IH]; cbn [incr map fst In].
    - intuition.
    - destruct (dec k a) as [->|Hka]; cbn [map fst In]; [intuition|]. rewrite IH. intuition.
  Qed.

  Lemma wf_cons a c s : wf ((a, c) :: s) <-> ~ In a (map fst s) /\ 0 < c /\ wf s.
  Proof.
    unfold wf. cbn [map fst]. split.
    - intros [Hn Hp]. inversion Hn; subst. inversion Hp; subst. tauto.
    - intros (Ha & Hc & Hn & Hp). split; constructor; assumption.
  Qed.

  Lemma wf_incr s k : wf s -> wf (incr dec s k).
  Proof.
    induction s as [|[a c] s IH]; cbn [incr]; intro W.
    - apply wf_cons. split; [intros []|]. split; [lia|exact W].
    - apply wf_cons in W. destruct W as (Hna & Hc & W). destruct (dec k a) as [->|Hka]; apply wf_cons.
      + split; [exact Hna|]. split; [lia|exact W].
      + split; [rewrite keys_incr; intros [E|E]; [congruence|contradiction]|]. split; [exact Hc|apply IH; exact W].
  Qed.

  Lemma length_incr s k :
    length (incr dec s k) = if in_dec dec k (map fst s) then length s else S (length s).
  Proof.
    induction s as [|[a c] s IH]; cbn [incr map fst length].
    - destruct (in_dec dec k []) as [[]|]; reflexivity.
    - destruct (dec k a) as [->|Hka]; cbn [length].
      + destruct (in_dec dec a (a :: map fst s)) as [|n]; [reflexivity|exfalso; apply n; left; reflexivity].
      + rewrite IH. destruct (in_dec dec k (map fst s)) as [i|n], (in_dec dec k (a :: map fst s)) as [i'|n'];
          try reflexivity.
        * exfalso; apply n'; right; assumption.
        * destruct i' as [E|E]; [congruence|contradiction].
  Qed.

  Lemma get_notin s k : ~ In k (map fst s) -> get dec s k = 0.
  Proof.
    induction s as [|[a c] s IH]; cbn [get map fst In]; [reflexivity|].
    intro H. destruct (dec k a) as [->|]; [exfalso; apply H; left; reflexivity|apply IH; tauto].
  Qed.

  Lemma get_In s k c : get dec s k = c -> c <> 0 -> In (k, c) s.
  Proof.
    induction s as [|[a c0] s IH]; cbn [get In]; intros H Hc; [congruence|].
    destruct (dec k a) as [->|]; [left; congruence|right; auto].
  Qed.

  Lemma wf_In s k c : wf s -> (In (k, c) s <-> get dec s k = c /\ 0 < c).
  Proof.
    intro W. split; [|intros [E P]; apply get_In; [exact E|lia]].
    induction s as [|[a c0] s IH]; cbn [get In]; [intros []|].
    apply wf_cons in W. destruct W as (Hna & Hc & W). intros [E|E].
    - inversion E; subst. destruct (dec k k); [lia|congruence].
    - destruct (dec k a) as [->|]; [exfalso; apply Hna; exact (in_map fst _ _ E)|exact (IH W E)].
  Qed.

  Lemma wf_get_pos s k : wf s -> (0 < get dec s k <-> In k (map fst s)).
  Proof.
    intro W. split.
    - intro H. assert (I : In (k, get dec s k) s) by (apply wf_In; auto).
      apply (in_map fst) in I. exact I.
    - intro H. apply in_map_iff in H. destruct H as [[k' c] [E I]]. cbn [fst] in E. subst k'.
      apply wf_In in I; [|assumption]. lia.
  Qed.

  Lemma wf_get_nonneg s k : wf s -> 0 <= get dec s k.
  Proof.
    intro W. destruct (in_dec dec k (map fst s)) as [i|n].
    - apply wf_get_pos in i; auto. lia.
    - rewrite get_notin; auto. lia.
  Qed.

  Lemma wf_NoDup s : wf s -> NoDup s.
  Proof. intros [Hn _]. eapply NoDup_map_inv. exact Hn. Qed.

  Lemma wf_filter (p : A * Z -> bool) s : wf s -> wf (filter p s).
  Proof.
    induction s as [|[a c] s IH]; intro W; cbn [filter]; [exact W|].
    apply wf_cons in W. destruct W as (Hna & Hc & W). destruct (p (a, c)); [|apply IH; exact W].
    apply wf_cons. split; [|split; [exact Hc|apply IH; exact W]].
    intro H. apply Hna. apply in_map_iff in H. destruct H as [x [E I]]. apply filter_In in I.
    apply in_map_iff. exists x. tauto.
  Qed.

  Lemma get_filter (q : Z -> bool) s k : wf s ->
    get dec (filter (fun kc : A * Z => q (snd kc)) s) k = if q (get dec s k) then get dec s k else 0.
  Proof.
    induction s as [|[a c] s IH]; intro W; cbn [filter get]; [destruct (q 0); reflexivity|].
    apply wf_cons in W. destruct W as (Hna & Hc & W). specialize (IH W). cbn [snd].
    destruct (dec k a) as [->|Hka].
    - destruct (q c) eqn:Eq; cbn [get].
      + destruct (dec a a); [reflexivity|congruence].
      + rewrite IH. rewrite (get_notin s a Hna). destruct (q 0); reflexivity.
    - destruct (q c); cbn [get]; [destruct (dec k a); [congruence|]|]; exact IH.
  Qed.

  Lemma keys_filter (q : Z -> bool) s k : wf s ->
    (In k (map fst (filter (fun kc : A * Z => q (snd kc)) s)) <-> 0 < get dec s k /\ q (get dec s k) = true).
  Proof.
    intro W. rewrite <- wf_get_pos by (apply wf_filter; exact W). rewrite get_filter by exact W.
    destruct (q (get dec s k)); [tauto|]. split; [lia|intros [_ F]; discriminate].
  Qed.

  Lemma wf_perm s1 s2 : wf s1 -> wf s2 -> (forall k, get dec s1 k = get dec s2 k) -> Permutation s1 s2.
  Proof.
    intros W1 W2 H. apply NoDup_Permutation; try (apply wf_NoDup; assumption).
    intros [k c]. rewrite (wf_In s1 k c W1), (wf_In s2 k c W2), H. tauto.
  Qed.

  Lemma get_fold_incr l s k : get dec (fold_left (incr dec) l s) k = get dec s k + cnt dec l k.
  Proof.
    revert s. induction l as [|a l IH]; intro s; unfold cnt in *; cbn [fold_left count_occ].
    - cbn. lia.
    - rewrite IH, get_incr. destruct (dec k a) as [E1|E1], (dec a k) as [E2|E2]; try congruence; lia.
  Qed.

  Lemma wf_fold_incr l s : wf s -> wf (fold_left (incr dec) l s).
  Proof. revert s. induction l as [|a l IH]; intros s W; cbn [fold_left]; auto using wf_incr. Qed.

  Lemma cnt_app l1 l2 k : cnt dec (l1 ++ l2) k = cnt dec l1 k + cnt dec l2 k.
  Proof. unfold cnt. rewrite count_occ_app. lia. Qed.

  Lemma cnt_nonneg l k : 0 <= cnt dec l k.
  Proof. unfold cnt. lia. Qed.

  Lemma cnt_pos_In l k : 0 < cnt dec l k <-> In k l.
  Proof. unfold cnt. rewrite (count_occ_In dec). lia. Qed.

  Lemma memb_true k l : memb dec k l = true <-> In k l.
  Proof.
    induction l as [|x l IH]; cbn [memb In]; [split; [discriminate|tauto]|].
    destruct (dec k x) as [->|N]; [tauto|]. rewrite IH. split; [tauto|]. intros [E|E]; [congruence|assumption].
  Qed.

  Lemma memb_false k l : memb dec k l = false <-> ~ In k l.
  Proof. rewrite <- memb_true. destruct (memb dec k l); split; congruence. Qed.

  Lemma memb_ext k l l' : (forall x, In x l <-> In x l') -> memb dec k l = memb dec k l'.
  Proof. intro H. apply eq_true_iff_eq. rewrite !memb_true. apply H. Qed.

  Lemma cnt_filter (p : A -> bool) l k : cnt dec (filter p l) k = if p k then cnt dec l k else 0.
  Proof.
    unfold cnt. induction l as [|a l IH]; cbn [filter count_occ]; [destruct (p k); reflexivity|].
    destruct (dec a k) as [->|N].
    - destruct (p k); [rewrite count_occ_cons_eq by reflexivity; lia|exact IH].
    - destruct (p a); [rewrite count_occ_cons_neq by exact N|]; exact IH.
  Qed.

  Lemma dedup_nodup l : dedup dec l = nodup dec l.
  Proof.
    induction l as [|x l IH]; cbn [dedup nodup]; [reflexivity|].
    destruct (in_dec dec x l) as [i|n].
    - apply memb_true in i. rewrite i. assumption.
    - apply memb_false in n. rewrite n. congruence.
  Qed.
End AssocFacts.
Arguments wf {A} s.
Arguments get_In {A} dec s k c.
Arguments wf_In {A} dec s k c.
Arguments get_filter {A} dec q s k.
Arguments keys_filter {A} dec q s k.
Arguments wf_perm {A} dec s1 s2.
Arguments cnt_pos_In {A} dec l k.
Arguments memb_true {A} dec k l.
Arguments memb_false {A} dec k l.
Arguments dedup_nodup {A} dec l.

(* The warm-phase sketch of Stats/Quality.v is C14's model of the real sketch (Sketch/HLL.v) with the registers forgotten,
   so what is known of that one while it is warm holds here. *)
Definition abs_sketch (t : HLL.st) : sketch :=
  match t with HLL.Warm s => Warm s | HLL.Cold _ => Cold end.

Section SketchAbs.
  Variable p : N.
  Variable W : nat.
  Variable width : N.
  Variable h2 : N -> N.

  Lemma abs_add t v : abs_sketch (HLL.add p W width h2 t v) = sk_add (Z.of_nat W) (abs_sketch t) v.
  Proof.
    destruct t as [s|r]; cbn [HLL.add abs_sketch sk_add]; [|reflexivity].
    destruct (in_dec N.eq_dec v s) as [i|n].
    - apply HLLProofs.mem_In in i. rewrite i, orb_true_r. reflexivity.
    - assert (M : HLL.mem v s = false).
      { destruct (HLL.mem v s) eqn:E; [|reflexivity]. apply HLLProofs.mem_In in E. contradiction. }
      rewrite M, orb_false_r.
      destruct (Nat.ltb_spec (length s) W), (Z.ltb_spec (Z.of_nat (length s)) (Z.of_nat W)); try lia; reflexivity.
  Qed.

  Lemma abs_fold l : forall t, abs_sketch (fold_left (HLL.add p W width h2) l t) =
                               fold_left (sk_add (Z.of_nat W)) l (abs_sketch t).
  Proof. induction l as [|v l IH]; intro t; cbn [fold_left]; [reflexivity|]. rewrite IH, abs_add. reflexivity. Qed.

  Lemma abs_run l : abs_sketch (HLL.run p W width h2 l) = fold_left (sk_add (Z.of_nat W)) l (Warm []).
  Proof. unfold HLL.run. apply abs_fold. Qed.

End SketchAbs.

Definition len_view (x : HLL.lent) : option nat := match x with HLL.Exact n => Some n | HLL.Est _ => None end.

Lemma len_view_abs t : len_view (HLL.len t) = sk_len (abs_sketch t).
Proof. destruct t; reflexivity. Qed.

(* the sketch length after ANY insertion sequence is a function of the set of inserted hashes: C14's exact_len while at
   most [cap] distinct values came, and a converted sketch (cold_regs) beyond.  The warm phase never looks at the registers,
   so [abs_run] holds for every index width p, word width and register hash: any instance of them will do here. *)
Lemma sk_len_fold cap xs : 0 <= cap ->
  sk_len (fold_left (sk_add cap) xs (Warm [])) =
  let d := length (nodup N.eq_dec xs) in if Z.of_nat d <=? cap then Some d else None.
Proof.
  intro H. rewrite <- (Z2Nat.id cap H). set (W := Z.to_nat cap).
  rewrite <- (abs_run 0%N W 0%N (fun x => x)), <- len_view_abs. cbv zeta. fold (HLL.distinct xs).
  destruct (Z.leb_spec (Z.of_nat (HLL.distinct xs)) (Z.of_nat W)) as [L|L].
  - rewrite HLLProofs.exact_len by lia. reflexivity.
  - destruct (HLLProofs.cold_regs 0%N W 0%N (fun x => x) xs) as (r & E & _); [lia|]. rewrite E. reflexivity.
Qed.

Lemma nodup_map_inj_length (hash : val -> N) (l : list val) :
  (forall u v, In u l -> In v l -> hash u = hash v -> u = v) ->
  length (nodup N.eq_dec (map hash l)) = length (nodup val_eq_dec l).
Proof.
  intro Inj. symmetry. rewrite <- (map_length hash (nodup val_eq_dec l)). apply NoDup_same_set_length.
  - apply NoDup_map_inj_on; [|apply NoDup_nodup]. intros u v Iu Iv. apply Inj; apply (nodup_In val_eq_dec); assumption.
  - intro h. rewrite !in_map_iff. split; intros [v [E I]]; exists v; (split; [exact E|]); apply (nodup_In val_eq_dec); exact I.
Qed.

Section CardFacts.
  Variable hash : val -> N.
  Variable cap : Z.

  Lemma sk_run_concat inss : sk_run cap inss = fold_left (sk_add cap) (concat inss) (Warm []).
  Proof. unfold sk_run. apply fold_left_concat. Qed.

  Lemma sets_concat (inss : list (list N)) (cols : list (list val)) :
    Forall2 (fun ins col => forall h, In h ins <-> In h (map hash (filter truthy col))) inss cols ->
    forall h, In h (concat inss) <-> In h (map hash (filter truthy (concat cols))).
  Proof.
    induction 1 as [|ins col inss cols H F IH]; intro h; cbn [concat]; [tauto|].
    rewrite filter_app, map_app, !in_app_iff, H, IH. tauto.
  Qed.

  Lemma card_any_order (inss : list (list N)) (cols : list (list val)) : 0 <= cap ->
    Forall2 (fun ins col => forall h, In h ins <-> In h (map hash (filter truthy col))) inss cols ->
    sk_len (sk_run cap inss) = card_spec hash cap (concat cols).
  Proof.
    intros Hc F. rewrite sk_run_concat, sk_len_fold by assumption. unfold card_spec. cbv zeta. rewrite dedup_nodup.
    rewrite (NoDup_same_set_length N.eq_dec (nodup N.eq_dec (concat inss)) (map hash (filter truthy (concat cols))));
      [reflexivity|apply NoDup_nodup|].
    intro h. rewrite nodup_In. apply sets_concat. exact F.
  Qed.

  Lemma batch_ins_set col h : In h (batch_ins hash col) <-> In h (map hash (filter truthy col)).
  Proof.
    unfold batch_ins. rewrite dedup_nodup, !in_map_iff. split; intros [v [E I]]; exists v; split; auto;
      rewrite filter_In in *; rewrite nodup_In in *; assumption.
  Qed.

  Lemma batch_ins_sets j (bs : list batch) :
    Forall2 (fun ins col => forall h, In h ins <-> In h (map hash (filter truthy col)))
            (map (fun b => batch_ins hash (column j b)) bs) (map (column j) bs).
  Proof. induction bs as [|b bs IH]; cbn [map]; constructor; [apply batch_ins_set|assumption]. Qed.

  Lemma card_is_spec j (bs : list batch) : 0 <= cap ->
    card hash cap j bs = card_spec hash cap (column j (concat bs)).
  Proof. intro Hc. unfold card. rewrite column_concat. apply card_any_order; [assumption|apply batch_ins_sets]. Qed.

  Lemma card_exact j (bs : list batch) : 0 <= cap ->
    let col := column j (concat bs) in
    (forall u v, In u col -> In v col -> truthy u = true -> truthy v = true -> hash u = hash v -> u = v) ->
    Z.of_nat (distinct_truthy col) <= cap ->
    card hash cap j bs = Some (distinct_truthy col).
  Proof.
    intros Hc col Inj Hd. rewrite card_is_spec by assumption. fold col. unfold card_spec, distinct_truthy in *.
    cbv zeta. rewrite !dedup_nodup in *. rewrite nodup_map_inj_length.
    - destruct (Z.leb_spec (Z.of_nat (length (nodup val_eq_dec (filter truthy col)))) cap); [reflexivity|lia].
    - intros u v Iu Iv. apply filter_In in Iu. apply filter_In in Iv. destruct Iu as [Iu Nu], Iv as [Iv Nv].
      apply Inj; auto.
  Qed.
End CardFacts.

Section HLLBridge.
  Variable p : N.
  Variable W : nat.
  Variable width : N.
  Variable h2 : N -> N.
  Variable hash : val -> N.

  (* the cardinality of Stats/Quality.v = the length of the real sketch model while that one is warm *)
  Lemma card_bridge j (bs : list batch) :
    card hash (Z.of_nat W) j bs = len_view (card_hll p W width h2 hash j bs).
  Proof. unfold card, card_hll. rewrite len_view_abs, abs_run, sk_run_concat. reflexivity. Qed.

  Lemma card_hll_any_order (inss : list (list N)) (cols : list (list val)) :
    Forall2 (fun ins col => forall h, In h ins <-> In h (map hash (filter truthy col))) inss cols ->
    HLL.len (HLL.run p W width h2 (concat inss)) = card_hll_spec p W width h2 hash (concat cols).
  Proof. intro F. unfold card_hll_spec. apply HLLProofs.len_set. apply (sets_concat hash). exact F. Qed.

  Lemma card_hll_is_spec j (bs : list batch) :
    card_hll p W width h2 hash j bs = card_hll_spec p W width h2 hash (column j (concat bs)).
  Proof. unfold card_hll. rewrite column_concat. apply card_hll_any_order, batch_ins_sets. Qed.

  Lemma card_hll_split_indep j (s1 s2 : list batch) : concat s1 = concat s2 ->
    card_hll p W width h2 hash j s1 = card_hll p W width h2 hash j s2.
  Proof. intro E. rewrite !card_hll_is_spec, E. reflexivity. Qed.
End HLLBridge.

Definition exact_run (col : list val) : al val := fold_left (incr val_eq_dec) col [].

(* the counter after any split is the item-by-item counter of the concatenated column *)
Lemma counter_is_concat bound j (bs : list batch) :
  counter bound j bs = fold_left (bc_add bound) (column j (concat bs)) [].
Proof. unfold counter, bc_run. rewrite fold_left_concat, column_concat. reflexivity. Qed.

Lemma wf_exact_run col : wf (exact_run col).
Proof. apply wf_fold_incr. apply wf_nil. Qed.

Lemma get_exact_run col v : get val_eq_dec (exact_run col) v = cnt val_eq_dec col v.
Proof. unfold exact_run. rewrite get_fold_incr. reflexivity. Qed.

Lemma keys_exact_run_perm col : Permutation (map fst (exact_run col)) (nodup val_eq_dec col).
Proof.
  apply NoDup_Permutation.
  - apply wf_exact_run.
  - apply NoDup_nodup.
  - intro x. rewrite <- (wf_get_pos _ val_eq_dec _ x (wf_exact_run col)), get_exact_run, (cnt_pos_In val_eq_dec), nodup_In.
    reflexivity.
Qed.

Lemma length_exact_run col : length (exact_run col) = length (nodup val_eq_dec col).
Proof. rewrite <- (map_length fst). apply Permutation_length, keys_exact_run_perm. Qed.

Lemma hist_exact edges col : hist_of edges (exact_run col) = hist_spec edges col.
Proof.
  unfold hist_of, hist_spec. cbv zeta. apply map_ext. intro x. f_equal. rewrite (dedup_nodup val_eq_dec col).
  transitivity (length (filter (fun c => x <? c) (map snd (exact_run col))));
    [rewrite filter_map_comm, map_length; reflexivity|].
  (* the stored counts, key by key, are the occurrence counts *)
  assert (E : map snd (exact_run col) = map (cnt val_eq_dec col) (map fst (exact_run col))).
  { rewrite map_map. apply map_ext_in. intros [k c] I. cbn [fst snd].
    apply (wf_In val_eq_dec) in I; [|apply wf_exact_run]. rewrite get_exact_run in I. lia. }
  rewrite E. apply filter_length_perm, Permutation_map, keys_exact_run_perm.
Qed.

(* ---- any column: the counter holds the exact counts of the prefix [eff_prefix] ------------------------------- *)

(* [eff_prefix] carries the list [seen] of distinct values only to know how many there are; the same prefix computed from
   the cells consumed so far: *)
Fixpoint counted (bound : Z) (done col : list val) : list val :=
  match col with
  | [] => []
  | x :: r => if Z.of_nat (length (nodup val_eq_dec done)) <? bound then x :: counted bound (done ++ [x]) r else []
  end.

Lemma eff_prefix_counted bound col : forall done seen, NoDup seen -> (forall x, In x seen <-> In x done) ->
  eff_prefix bound seen col = counted bound done col.
Proof.
  induction col as [|x col IH]; intros done seen N E; cbn [eff_prefix counted]; [reflexivity|].
  rewrite (NoDup_same_set_length val_eq_dec seen done N E). destruct (Z.of_nat (length (nodup val_eq_dec done)) <? bound); [|reflexivity].
  destruct (seen_snoc (memb val_eq_dec) seen done x (memb_true val_eq_dec) N E) as [N' E'].
  f_equal. apply IH; [exact N'|exact E'].
Qed.

Lemma eff_prefix_nil bound col : eff_prefix bound [] col = counted bound [] col.
Proof. apply eff_prefix_counted; [apply NoDup_nil|reflexivity]. Qed.

Lemma bc_frozen bound col c : bound <= Z.of_nat (length c) -> fold_left (bc_add bound) col c = c.
Proof.
  intro H. induction col as [|x col IH]; [reflexivity|]. cbn [fold_left]. unfold bc_add at 2.
  destruct (Z.ltb_spec (Z.of_nat (length c)) bound); [lia|assumption].
Qed.

Lemma exact_run_snoc done x : exact_run (done ++ [x]) = incr val_eq_dec (exact_run done) x.
Proof. unfold exact_run. rewrite fold_left_app. reflexivity. Qed.

(* the counter stores one key per distinct value, so its test is the test of [counted] *)
Lemma bc_counted bound col : forall done,
  fold_left (bc_add bound) col (exact_run done) = exact_run (done ++ counted bound done col).
Proof.
  induction col as [|x col IH]; intro done; cbn [fold_left counted]; [rewrite app_nil_r; reflexivity|].
  unfold bc_add at 2. rewrite length_exact_run.
  destruct (Z.ltb_spec (Z.of_nat (length (nodup val_eq_dec done))) bound) as [B|B].
  - rewrite <- exact_run_snoc, IH, <- app_assoc. reflexivity.
  - rewrite app_nil_r. apply bc_frozen. rewrite length_exact_run. exact B.
Qed.

(* the stored counter after any split, for ANY bound and column *)
Lemma counter_general bound j (bs : list batch) :
  counter bound j bs = exact_run (eff_prefix bound [] (column j (concat bs))).
Proof. rewrite counter_is_concat, eff_prefix_nil. apply (bc_counted bound _ []). Qed.

Lemma hist_is_general edges bound j (bs : list batch) :
  hist edges bound j bs = hist_general edges bound (column j (concat bs)).
Proof. unfold hist, hist_general. rewrite counter_general. apply hist_exact. Qed.

Lemma counter_get_general bound j (bs : list batch) v :
  get val_eq_dec (counter bound j bs) v = cnt val_eq_dec (eff_prefix bound [] (column j (concat bs))) v.
Proof. rewrite counter_general. apply get_exact_run. Qed.

(* what that prefix is, from any point of the scan *)
Lemma counted_prefix bound col : forall done, exists rest,
  col = counted bound done col ++ rest /\
  (rest <> [] -> bound <= Z.of_nat (length (nodup val_eq_dec (done ++ counted bound done col)))).
Proof.
  induction col as [|x col IH]; intro done; cbn [counted]; [exists []; split; [reflexivity|congruence]|].
  destruct (Z.ltb_spec (Z.of_nat (length (nodup val_eq_dec done))) bound) as [B|B].
  - destruct (IH (done ++ [x])) as (rest & E & Hstop). exists rest. rewrite <- app_assoc in Hstop.
    split; [cbn [app]; congruence|exact Hstop].
  - exists (x :: col). split; [reflexivity|]. intros _. rewrite app_nil_r. exact B.
Qed.

Lemma counted_below bound col : forall done q x t,
  counted bound done col = q ++ x :: t -> Z.of_nat (length (nodup val_eq_dec (done ++ q))) < bound.
Proof.
  induction col as [|x0 col IH]; intros done q x t E; cbn [counted] in E; [destruct q; discriminate|].
  destruct (Z.ltb_spec (Z.of_nat (length (nodup val_eq_dec done))) bound) as [B|B]; [|destruct q; discriminate].
  destruct q as [|y q]; cbn [app] in E; [rewrite app_nil_r; exact B|].
  injection E as <- E. apply IH in E. rewrite <- app_assoc in E. exact E.
Qed.

Lemma counted_all bound col : forall done,
  Z.of_nat (length (nodup val_eq_dec (done ++ col))) < bound -> counted bound done col = col.
Proof.
  induction col as [|x col IH]; intros done H; cbn [counted]; [reflexivity|].
  pose proof (nodup_incl_length val_eq_dec done (done ++ x :: col) (incl_appl _ (incl_refl done))).
  destruct (Z.ltb_spec (Z.of_nat (length (nodup val_eq_dec done))) bound); [|lia].
  f_equal. apply IH. rewrite <- app_assoc. exact H.
Qed.

Lemma eff_prefix_spec bound col :
  let pre := eff_prefix bound [] col in
  (exists rest, col = pre ++ rest /\
                (rest <> [] -> bound <= Z.of_nat (length (nodup val_eq_dec pre)))) /\
  (forall q x t, pre = q ++ x :: t -> Z.of_nat (length (nodup val_eq_dec q)) < bound) /\
  (Z.of_nat (length (nodup val_eq_dec col)) < bound -> pre = col).
Proof.
  cbv zeta. rewrite eff_prefix_nil.
  split; [exact (counted_prefix bound col [])|]. split; [exact (counted_below bound col [])|exact (counted_all bound col [])].
Qed.

(* below the bound the whole column is counted *)
Lemma hist_is_spec edges bound j (bs : list batch) :
  let col := column j (concat bs) in
  Z.of_nat (length (nodup val_eq_dec col)) < bound ->
  hist edges bound j bs = hist_spec edges col.
Proof.
  intros col H. rewrite hist_is_general. unfold hist_general. fold col.
  rewrite (proj2 (proj2 (eff_prefix_spec bound col)) H). reflexivity.
Qed.

Lemma counter_exact bound j (bs : list batch) v :
  let col := column j (concat bs) in
  Z.of_nat (length (nodup val_eq_dec col)) < bound ->
  get val_eq_dec (counter bound j bs) v = cnt val_eq_dec col v.
Proof.
  intros col H. rewrite counter_get_general. fold col.
  rewrite (proj2 (proj2 (eff_prefix_spec bound col)) H). reflexivity.
Qed.

(* beyond the bound the histogram is NOT the exact recomputation over all consumed rows: two slots, column a b a c a a *)
Lemma hist_all_rows_refuted :
  exists (bound : Z) (bs : list batch),
    hist [0; 1] bound 0 bs = [2; 0] /\ hist_spec [0; 1] (column 0 (concat bs)) = [3; 1] /\
    hist_general [0; 1] bound (column 0 (concat bs)) = [2; 0] /\
    eff_prefix bound [] (column 0 (concat bs)) = [V [97%N]; V [98%N]].
Proof.
  exists 2, [[[V [97%N]]; [V [98%N]]; [V [97%N]]]; [[V [99%N]]; [V [97%N]]; [V [97%N]]]].
  vm_compute. repeat split; reflexivity.
Qed.

(* ---- bridge to C15's model of PrimitiveConstrainedCounter (Sketch/Bounded.v): keys there are harness ids ---------- *)

Definition mapk (enc : val -> N) (c : al val) : Bounded.counter := map (fun kc => (enc (fst kc), snd kc)) c.

Section BoundedBridge.
  Variable enc : val -> N.
  Variable univ : list val.
  Hypothesis enc_inj : forall a b, In a univ -> In b univ -> enc a = enc b -> a = b.

  Lemma incr_bridge c v : incl (map fst c) univ -> In v univ ->
    mapk enc (incr val_eq_dec c v) = Bounded.incr (mapk enc c) (enc v).
  Proof.
    intros Hc Hv. induction c as [|[k n] c IH]; cbn [incr mapk map Bounded.incr fst snd]; [reflexivity|].
    assert (Hk : In k univ) by (apply Hc; left; reflexivity).
    assert (Hc' : incl (map fst c) univ) by (intros x I; apply Hc; right; exact I).
    destruct (val_eq_dec v k) as [->|NE].
    - rewrite N.eqb_refl. reflexivity.
    - destruct (N.eqb_spec (enc v) (enc k)) as [E|E]; [exfalso; apply NE; apply enc_inj; assumption|].
      cbn [map fst snd]. f_equal. apply IH. assumption.
  Qed.

  Lemma bc_add_bridge bound c v : incl (map fst c) univ -> In v univ ->
    mapk enc (bc_add bound c v) = Bounded.cadd bound (mapk enc c) (enc v).
  Proof.
    intros Hc Hv. unfold bc_add, Bounded.cadd, mapk at 2. rewrite map_length.
    destruct (Z.of_nat (length c) <? bound); [apply incr_bridge; assumption|reflexivity].
  Qed.

  Lemma bc_fold_bridge bound col : forall c, incl (map fst c) univ -> incl col univ ->
    mapk enc (fold_left (bc_add bound) col c) = fold_left (Bounded.cadd bound) (map enc col) (mapk enc c).
  Proof.
    induction col as [|v col IH]; intros c Hc Hcol; cbn [fold_left map]; [reflexivity|].
    apply incl_cons_inv in Hcol. destruct Hcol as [Hv Hcol].
    rewrite IH; [rewrite bc_add_bridge by assumption; reflexivity| |exact Hcol].
    (* the stored keys stay inside univ *)
    unfold bc_add. destruct (Z.of_nat (length c) <? bound); [|exact Hc].
    intros x I. apply keys_incr in I. destruct I as [->|I]; [exact Hv|apply Hc; exact I].
  Qed.

  (* the bounded counter of Stats/Quality.v, keys renamed by an injective id assignment, IS C15's crun on the ids *)
  Lemma counter_bridge bound j (bs : list batch) : incl (column j (concat bs)) univ ->
    mapk enc (counter bound j bs) = Bounded.crun bound (map enc (column j (concat bs))).
  Proof.
    intro H. rewrite counter_is_concat. unfold Bounded.crun.
    apply (bc_fold_bridge bound _ []); [intros x []|assumption].
  Qed.
End BoundedBridge.

Lemma count_pair j' (l : list val) j v :
  count_occ key_eq_dec (map (fun x => (j', x)) l) (j, v) =
  if Nat.eq_dec j j' then count_occ val_eq_dec l v else 0%nat.
Proof.
  destruct (Nat.eq_dec j j') as [->|N].
  - symmetry. apply (count_occ_map (fun x => (j', x))). intros x y E. injection E; auto.
  - apply count_occ_not_In. rewrite in_map_iff. intros [x [E _]]. injection E as E _. congruence.
Qed.

(* the cells of column j are listed when the column index reaches j, once *)
Lemma cnt_keys_of ncols (b : list row) k : cnt key_eq_dec (keys_of ncols b) k = total ncols b k.
Proof.
  destruct k as [j v]. unfold total, keys_of, cnt. cbn [fst snd].
  induction ncols as [|n IH]; [reflexivity|].
  rewrite seq_S, flat_map_app, (count_occ_app key_eq_dec), Nat2Z.inj_add, IH. cbn [flat_map Nat.add]. rewrite app_nil_r, count_pair.
  destruct (Nat.eq_dec j n) as [->|Hn].
  - replace (n <? n)%nat with false by lia. replace (n <? S n)%nat with true by lia. lia.
  - replace (j <? S n)%nat with (j <? n)%nat by lia. destruct (j <? n)%nat; lia.
Qed.

Lemma total_app ncols (r1 r2 : list row) k : total ncols (r1 ++ r2) k = total ncols r1 k + total ncols r2 k.
Proof. unfold total. destruct (fst k <? ncols)%nat; [|reflexivity]. rewrite column_app. apply cnt_app. Qed.

Lemma total_nonneg ncols rows k : 0 <= total ncols rows k.
Proof. unfold total. destruct (fst k <? ncols)%nat; [apply cnt_nonneg|lia]. Qed.

Lemma total_nil ncols k : total ncols [] k = 0.
Proof. unfold total. destruct (fst k <? ncols)%nat; reflexivity. Qed.

Section RareFacts.
  Variable thr : Z.
  Variable ncols : nat.
  Notation tot := (total ncols).

  (* counting the cells that are not ignored = counting the filtered cells *)
  Lemma rv_fold_filter ign keys : forall st,
    fold_left (rv_count ign) keys st =
    fold_left (incr key_eq_dec) (filter (fun k => negb (memb key_eq_dec k ign)) keys) st.
  Proof.
    induction keys as [|a keys IH]; intro st; cbn [fold_left filter]; [reflexivity|].
    rewrite IH. unfold rv_count. destruct (memb key_eq_dec a ign); reflexivity.
  Qed.

  Lemma wf_rv_fold ign keys st : wf st -> wf (fold_left (rv_count ign) keys st).
  Proof. rewrite rv_fold_filter. apply wf_fold_incr. Qed.

  Lemma get_rv_fold ign keys st k :
    get key_eq_dec (fold_left (rv_count ign) keys st) k =
    get key_eq_dec st k + (if memb key_eq_dec k ign then 0 else cnt key_eq_dec keys k).
  Proof. rewrite rv_fold_filter, get_fold_incr, cnt_filter. destruct (memb key_eq_dec k ign); reflexivity. Qed.

  (* what the sweep leaves of a count *)
  Definition carry (x : Z) : Z := if thr <? x then 0 else x.

  Lemma carry_spec x : (thr < x /\ carry x = 0) \/ (x <= thr /\ carry x = x).
  Proof. unfold carry. destruct (Z.ltb_spec thr x); [left|right]; split; auto. Qed.

  (* One batch, for one key with total a before and b cells in the batch, retired (r) exactly when a exceeded thr: the
     storage held carry a; the batch adds b unless the key is retired; the sweep carries that over, and the key is
     retired afterwards exactly when a + b exceeds thr. *)
  Lemma carry_step a b (r : bool) : 0 <= a -> 0 <= b -> (r = true <-> 0 < a /\ thr < a) ->
    let x := carry a + (if r then 0 else b) in
    carry x = carry (a + b) /\ ((0 < x /\ thr < x) \/ r = true <-> 0 < a + b /\ thr < a + b).
  Proof.
    intros Ha Hb Hr x. pose proof (carry_spec a). pose proof (carry_spec x). pose proof (carry_spec (a + b)).
    subst x. destruct r.
    - assert (0 < a /\ thr < a) by (apply Hr; reflexivity). lia.
    - assert (~ (0 < a /\ thr < a)) by (intro Q; apply Hr in Q; discriminate). lia.
  Qed.

  Definition Inv (pre : list row) (s : rstate) : Prop :=
    wf (fst s) /\
    (forall k, In k (snd s) <-> 0 < tot pre k /\ thr < tot pre k) /\
    (forall k, get key_eq_dec (fst s) k = carry (tot pre k)).

  Lemma Inv_init : Inv [] ([], []).
  Proof.
    split; [apply wf_nil|split]; intro k; cbn [fst snd get In]; rewrite total_nil.
    - lia.
    - unfold carry. destruct (thr <? 0); reflexivity.
  Qed.

  Lemma Inv_step pre s b : Inv pre s -> Inv (pre ++ b) (rv_batch thr ncols s b).
  Proof.
    destruct s as [st ign]. intros (W & Hi & Hg). cbn [fst snd] in *. unfold rv_batch. cbv beta iota zeta.
    set (st1 := fold_left (rv_count ign) (keys_of ncols b) st).
    assert (W1 : wf st1) by (apply wf_rv_fold; exact W).
    assert (G1 : forall k, get key_eq_dec st1 k =
                           carry (tot pre k) + (if memb key_eq_dec k ign then 0 else tot b k))
      by (intro k; unfold st1; rewrite get_rv_fold, cnt_keys_of, Hg; reflexivity).
    split; [apply wf_filter; exact W1|]. cbn [fst snd].
    assert (CS : forall k, let x := carry (tot pre k) + (if memb key_eq_dec k ign then 0 else tot b k) in
                 carry x = carry (tot pre k + tot b k) /\
                 ((0 < x /\ thr < x) \/ memb key_eq_dec k ign = true <-> 0 < tot pre k + tot b k /\ thr < tot pre k + tot b k)).
    { intro k. apply carry_step; [apply total_nonneg|apply total_nonneg|]. rewrite memb_true. apply Hi. }
    split; intro k; rewrite total_app; destruct (CS k) as [C R].
    - rewrite in_app_iff, (keys_filter key_eq_dec (fun c => thr <? c)) by exact W1.
      rewrite G1, Z.ltb_lt, <- (memb_true key_eq_dec). exact R.
    - rewrite (get_filter key_eq_dec (fun c => negb (thr <? c))) by exact W1. rewrite G1, negb_if. exact C.
  Qed.

  Lemma Inv_run (bs : list batch) : Inv (concat bs) (rv_run thr ncols bs).
  Proof. exact (fold_left_concat_inv Inv (rv_batch thr ncols) Inv_step bs [] ([], []) Inv_init). Qed.

  Lemma rare_spec (bs : list batch) :
    NoDup (map fst (rare thr ncols bs)) /\
    (forall k c, In (k, c) (rare thr ncols bs) <-> c = tot (concat bs) k /\ 0 < c /\ c <= thr) /\
    (forall k, get key_eq_dec (rare thr ncols bs) k =
               if thr <? tot (concat bs) k then 0 else tot (concat bs) k) /\
    (forall k, In k (snd (rv_run thr ncols bs)) <-> 0 < tot (concat bs) k /\ thr < tot (concat bs) k).
  Proof.
    destruct (Inv_run bs) as (W & Hi & Hg). unfold rare. split; [apply W|split; [|split; assumption]].
    intros k c. rewrite (wf_In key_eq_dec _ k c W), Hg.
    destruct (carry_spec (tot (concat bs) k)); lia.
  Qed.

  Lemma rare_split_indep (s1 s2 : list batch) : concat s1 = concat s2 ->
    Permutation (rare thr ncols s1) (rare thr ncols s2) /\
    (forall k, get key_eq_dec (rare thr ncols s1) k = get key_eq_dec (rare thr ncols s2) k).
  Proof.
    intro E. unfold rare. destruct (Inv_run s1) as (W1 & _ & G1), (Inv_run s2) as (W2 & _ & G2).
    assert (G : forall k, get key_eq_dec (fst (rv_run thr ncols s1)) k = get key_eq_dec (fst (rv_run thr ncols s2)) k)
      by (intro k; rewrite G1, G2, E; reflexivity).
    split; [apply (wf_perm key_eq_dec); assumption|exact G].
  Qed.

  Lemma nodup_keysb_spec l : nodup_keysb l = true <-> NoDup l.
  Proof. exact (nodupb_iff_of (memb key_eq_dec) nodup_keysb (memb_true key_eq_dec) eq_refl (fun _ _ => eq_refl) l). Qed.

  Lemma rare_checkb_sound rows rep : rare_checkb thr ncols rows rep = true ->
    NoDup (map fst rep) /\ (forall k c, In (k, c) rep <-> c = tot rows k /\ 0 < c /\ c <= thr).
  Proof.
    unfold rare_checkb. rewrite !andb_true_iff. intros [[H1 H2] H3].
    apply nodup_keysb_spec in H1. split; [assumption|].
    rewrite forallb_forall in H2, H3. intros k c. split.
    - intro I. specialize (H2 _ I). cbn [fst snd] in H2. lia.
    - intros (E & P & L). subst c.
      assert (I : In k (keys_of ncols rows)) by (apply (cnt_pos_In key_eq_dec); rewrite cnt_keys_of; assumption).
      rewrite <- (nodup_In key_eq_dec), <- dedup_nodup in I. specialize (H3 _ I). cbv zeta in H3. apply (get_In key_eq_dec); lia.
  Qed.

  Lemma rare_checkb_model (bs : list batch) : rare_checkb thr ncols (concat bs) (rare thr ncols bs) = true.
  Proof.
    destruct (rare_spec bs) as (N & S & G & _). unfold rare_checkb. rewrite !andb_true_iff. repeat split.
    - apply nodup_keysb_spec. assumption.
    - apply forallb_forall. intros [k c] I. apply S in I. cbn [fst snd]. lia.
    - apply forallb_forall. intros k _. cbv zeta. rewrite G.
      destruct (Z.ltb_spec thr (tot (concat bs) k)); lia.
  Qed.
End RareFacts.

(* the machine before fix 549e068: threshold 2, [a,a,a,b] | [a,b,c] reports a with count 1 although a
   occurs 4 times; the same rows in one batch do not report a *)
Lemma rare_old_refuted :
  exists (thr : Z) (s1 s2 : list batch) (k : key),
    concat s1 = concat s2 /\
    total 1 (concat s1) k = 4 /\ thr = 2 /\
    get key_eq_dec (rare_old thr 1 s1) k = 1 /\
    get key_eq_dec (rare_old thr 1 s2) k = 0 /\
    get key_eq_dec (rare thr 1 s1) k = 0.
Proof.
  exists 2, [[[V [97%N]]; [V [97%N]]; [V [97%N]]; [V [98%N]]]; [[V [97%N]]; [V [98%N]]; [V [99%N]]]],
         [[[V [97%N]]; [V [97%N]]; [V [97%N]]; [V [98%N]]; [V [97%N]]; [V [98%N]]; [V [99%N]]]], (0%nat, V [97%N]).
  vm_compute. repeat split; reflexivity.
Qed.

Lemma filter_cons_len (a : val) l' (col : list val) : ~ In a l' ->
  length (filter (fun v => memb val_eq_dec v (a :: l')) col) =
  (count_occ val_eq_dec col a + length (filter (fun v => memb val_eq_dec v l') col))%nat.
Proof.
  intro Na. apply (memb_false val_eq_dec) in Na.
  induction col as [|v col IH]; [reflexivity|]. cbn [filter count_occ].
  change (memb val_eq_dec v (a :: l')) with (if val_eq_dec v a then true else memb val_eq_dec v l').
  destruct (val_eq_dec v a) as [->|E].
  - rewrite Na. cbn [length]. rewrite IH. lia.
  - destruct (memb val_eq_dec v l'); cbn [length]; rewrite IH; lia.
Qed.

Lemma sum_counts l (col : list val) : NoDup l ->
  sum_Z (map (cnt val_eq_dec col) l) = Z.of_nat (length (filter (fun v => memb val_eq_dec v l) col)).
Proof.
  induction 1 as [|a l Na N IH]; cbn [map sum_Z fold_right].
  - unfold sum_Z. cbn. induction col; cbn; auto.
  - rewrite filter_cons_len by assumption. unfold sum_Z in *. rewrite IH. unfold cnt. lia.
Qed.

(* the cells holding one of the missing-value symbols: strings only — nan / None cells are never among them *)
Definition missing_cells (syms : list str) (col : list val) : Z :=
  Z.of_nat (length (filter (fun v => memb val_eq_dec v (map V syms)) col)).

Lemma miss_count_spec syms col : miss_count syms col = missing_cells syms col.
Proof.
  unfold miss_count, missing_cells. rewrite dedup_nodup.
  rewrite <- (map_map V (cnt val_eq_dec col)).
  rewrite sum_counts by (apply NoDup_map_inj_on; [intros x y _ _ E; injection E; auto|apply NoDup_nodup]).
  f_equal. f_equal. apply filter_ext. intro v. apply memb_ext.
  intro x. rewrite !in_map_iff. split; intros [y [Ey Iy]]; exists y; (split; [exact Ey|]); apply (nodup_In str_eq_dec); exact Iy.
Qed.

Lemma missing_le syms col : 0 <= missing_cells syms col <= Z.of_nat (length col).
Proof. unfold missing_cells. pose proof (filter_length_le (fun v => memb val_eq_dec v (map V syms)) col). lia. Qed.

Lemma cov_batch_full syms col : col <> [] ->
  (cov_batch syms col * inject_Z (Z.of_nat (length col)) ==
   inject_Z (100 * (Z.of_nat (length col) - missing_cells syms col)))%Q /\
  (0 <= cov_batch syms col <= 100)%Q.
Proof.
  intro H. pose proof (missing_le syms col) as M. unfold cov_batch. rewrite miss_count_spec.
  assert (P : 0 < Z.of_nat (length col)) by (destruct col; [congruence|cbn [length]; lia]).
  set (n := Z.of_nat (length col)) in *. set (m := missing_cells syms col) in *. clearbody n m.
  assert (PN : (0 < inject_Z n)%Q) by (change 0%Q with (inject_Z 0); rewrite <- Zlt_Qlt; lia).
  assert (NZ : ~ (inject_Z n == 0)%Q) by (intro E; rewrite E in PN; exact (Qlt_irrefl _ PN)).
  (* the percentage is the integer ratio 100 (n - m) / n with 0 <= m <= n *)
  assert (E : ((1 - inject_Z m / inject_Z n) * 100 == inject_Z (100 * (n - m)) / inject_Z n)%Q).
  { unfold Z.sub. rewrite inject_Z_mult, inject_Z_plus, inject_Z_opp. field. exact NZ. }
  rewrite E. split; [field; exact NZ|]. split.
  - apply Qle_shift_div_l; [exact PN|]. rewrite Qmult_0_l. change 0%Q with (inject_Z 0). rewrite <- Zle_Qle. lia.
  - apply Qle_shift_div_r; [exact PN|]. change 100%Q with (inject_Z 100). rewrite <- inject_Z_mult, <- Zle_Qle. lia.
Qed.

(* nearest integer, ties to even: |x - r| <= 1/2, and r is even at a tie *)
Lemma rhe_spec (n : Z) (d : positive) :
  let r := round_half_even (n # d) in
  (2 * r - 1) * Zpos d <= 2 * n <= (2 * r + 1) * Zpos d /\
  (2 * n = (2 * r + 1) * Zpos d \/ 2 * n = (2 * r - 1) * Zpos d -> Z.even r = true).
Proof.
  unfold round_half_even. cbn [Qnum Qden].
  pose proof (Z.div_mod n (Zpos d) ltac:(lia)) as E.
  pose proof (Z.mod_pos_bound n (Zpos d) ltac:(lia)) as B.
  set (fl := n / Zpos d) in *. set (rm := n mod Zpos d) in *. clearbody fl rm.
  destruct (Z.compare_spec (2 * rm) (Zpos d)) as [C|C|C].
  - (* the tie: of fl and fl + 1 the even one is taken *)
    destruct (Z.even fl) eqn:Ev.
    + split; [nia|intros _; exact Ev].
    + split; [nia|]. intros _. change (fl + 1) with (Z.succ fl). rewrite Z.even_succ, <- Z.negb_even, Ev. reflexivity.
  - split; [nia|]. intros [H|H]; exfalso; nia.
  - split; [nia|]. intros [H|H]; exfalso; nia.
Qed.

Lemma annot_spec (n : Z) (d : positive) (a : Z) : 0 <= n ->
  (Z.quot (round_half_even (n # d)) 10 = a <->
   (20 * a - 1) * Zpos d <= 2 * n < (20 * a + 19) * Zpos d).
Proof.
  intro Hn. destruct (rhe_spec n d) as [B T]. cbv zeta in *.
  set (r := round_half_even (n # d)) in *. clearbody r.
  assert (R0 : 0 <= r) by nia.
  rewrite Z.quot_div_nonneg by lia.
  (* The interval for a is closed below and open above because of the ties: 2n = (20a - 1) d is the tie n/d = 10a - 1/2,
     2n = (20a + 19) d the tie n/d = 10a + 19/2; a tie rounds to the even neighbour (T), and 10a - 1, 10a + 9 are odd, so the
     first tie goes up into the interval of a and the second goes up out of it. *)
  assert (Ev : forall k, (r = 10 * k + 9 \/ r = 10 * k - 1) -> Z.even r = true -> False).
  { intros k Hk He. apply Z.even_spec in He. destruct He as [q Hq]. lia. }
  split.
  - intro A. pose proof (Z.div_mod r 10 ltac:(lia)) as E. pose proof (Z.mod_pos_bound r 10 ltac:(lia)) as M.
    rewrite A in E. split; [nia|].
    destruct (Z.eq_dec (2 * n) ((20 * a + 19) * Zpos d)) as [Q|Q]; [|nia].
    exfalso. assert (r = 10 * a + 9) by nia. apply (Ev a); [lia|]. apply T. left. nia.
  - intros [L U]. symmetry. apply (Z.div_unique r 10 a (r - 10 * a)); [|lia].
    assert (10 * a - 1 <= r) by nia. assert (r < 10 * a + 10) by nia.
    destruct (Z.eq_dec r (10 * a - 1)) as [Q|Q]; [|lia].
    exfalso. apply (Ev a); [lia|]. apply T. left. nia.
Qed.

Theorem cov_annot_spec covs a : (0 <= qmean covs)%Q ->
  (cov_annot covs = a <->
   (inject_Z a - (1 # 20) <= qmean covs)%Q /\ (qmean covs < inject_Z a + (19 # 20))%Q).
Proof.
  unfold cov_annot. destruct (qmean covs) as [p q]. intro H0.
  assert (P : 0 <= p) by (unfold Qle in H0; cbn in H0; lia).
  unfold Qmult. cbn [Qnum Qden]. rewrite annot_spec by lia.
  unfold Qle, Qlt, Qminus, Qplus, Qopp, inject_Z. cbn [Qnum Qden].
  rewrite Pos.mul_1_r. change (Z.pos (1 * 20)) with 20. lia.
Qed.

Lemma qsum_nonneg l : Forall (fun c => 0 <= c)%Q l -> (0 <= qsum l)%Q.
Proof.
  induction 1 as [|c l Hc F IH]; cbn [qsum fold_right]; [apply Qle_refl|].
  change 0%Q with (0 + 0)%Q. apply Qplus_le_compat; assumption.
Qed.

Lemma qmean_nonneg l : Forall (fun c => 0 <= c)%Q l -> (0 <= qmean l)%Q.
Proof.
  intro F. unfold qmean, Qdiv. apply Qmult_le_0_compat; [apply qsum_nonneg; assumption|].
  apply Qinv_le_0_compat. change 0%Q with (inject_Z 0). rewrite <- Zle_Qle. lia.
Qed.

Lemma concat_cut sizes (rows : list row) : list_sum sizes = length rows -> concat (cut sizes rows) = rows.
Proof.
  revert rows. induction sizes as [|n r IH]; intros rows H; cbn [cut concat] in *.
  - destruct rows; [reflexivity|discriminate].
  - change (list_sum (n :: r)) with (n + list_sum r)%nat in H. rewrite IH; [apply firstn_skipn|]. rewrite skipn_length. lia.
Qed.

Fixpoint join (c : N) (l : list str) : str :=
  match l with
  | [] => []
  | x :: r => match r with [] => x | _ => x ++ c :: join c r end
  end.

(* args.missing_value_symbols.split(','): [split_on] tests the separator after the recursive call, Split.split_on before *)
Lemma split_on_eq c s : split_on c s = Split.split_on c s.
Proof.
  induction s as [|x r IH]; [reflexivity|]. cbn [split_on Split.split_on]. rewrite IH.
  pose proof (Split.split_on_nonnil c r) as NN. destruct (Split.split_on c r) as [|h t]; [contradiction|].
  destruct (N.eqb x c); reflexivity.
Qed.

(* str.split(c): the pieces contain no separator and joining them with it gives the string back ([join] is Split.join_sep, by conversion) *)
Lemma split_on_spec c s : join c (split_on c s) = s /\ Forall (fun p => ~ In c p) (split_on c s).
Proof. rewrite split_on_eq. split; [apply Split.join_split|apply Forall_forall, Split.split_on_nodelim]. Qed.

Lemma split_indep (hash : val -> N) cap edges bound thr ncols (s1 s2 : list batch) :
  0 <= cap -> concat s1 = concat s2 ->
  (forall j, card hash cap j s1 = card hash cap j s2) /\
  (forall j, counter bound j s1 = counter bound j s2 /\ hist edges bound j s1 = hist edges bound j s2) /\
  Permutation (rare thr ncols s1) (rare thr ncols s2) /\
  (forall k, get key_eq_dec (rare thr ncols s1) k = get key_eq_dec (rare thr ncols s2) k).
Proof.
  intros Hc E. split; [|split].
  - intro j. rewrite !card_is_spec by assumption. rewrite E. reflexivity.
  - intro j. unfold hist. rewrite !counter_is_concat, E. split; reflexivity.
  - apply rare_split_indep. assumption.
Qed.

(* every composition of the row count gives the same statistics *)
Lemma compositions_agree (hash : val -> N) cap edges bound thr ncols (rows : list row) sz1 sz2 :
  0 <= cap -> list_sum sz1 = length rows -> list_sum sz2 = length rows ->
  (forall j, card hash cap j (cut sz1 rows) = card hash cap j (cut sz2 rows)) /\
  (forall j, hist edges bound j (cut sz1 rows) = hist edges bound j (cut sz2 rows)) /\
  Permutation (rare thr ncols (cut sz1 rows)) (rare thr ncols (cut sz2 rows)).
Proof.
  intros Hc H1 H2.
  destruct (split_indep hash cap edges bound thr ncols (cut sz1 rows) (cut sz2 rows) Hc) as (A & B & C & _).
  - rewrite !concat_cut by assumption. reflexivity.
  - split; [exact A|split; [intro j; apply B|exact C]].
Qed.

Lemma frame_row_none_free (b : list rrow) (r : rrow) a :
  forallb (fun c => negb (is_none c)) r = true ->
  map (frame_cell b) (combine (seq a (length r)) r) = map lift_cell r.
Proof.
  revert a. induction r as [|c r IH]; intros a H; [reflexivity|]. cbn [length seq combine map].
  cbn [forallb] in H. apply andb_true_iff in H. destruct H as [Hc Hr]. f_equal; [|apply IH; assumption].
  destruct c; [reflexivity|discriminate].
Qed.

(* without None cells the frame holds every cell's string, whatever the batch *)
Lemma frame_none_free (b : list rrow) : none_free b = true -> frame_raw b = lift b.
Proof.
  intro H. apply map_ext_in. intros r I. apply frame_row_none_free.
  unfold none_free in H. rewrite forallb_forall in H. apply H. exact I.
Qed.

Lemma frames_none_free (s : list (list rrow)) : Forall (fun b => none_free b = true) s ->
  concat (frames_raw s) = lift (concat s).
Proof.
  induction 1 as [|b s Hb F IH]; [reflexivity|]. unfold frames_raw in *. cbn [map concat].
  rewrite IH, frame_none_free by assumption. unfold lift. rewrite map_app. reflexivity.
Qed.

(* split independence at the level of parsed rows, for histories without None cells *)
Lemma raw_split_indep (hash : val -> N) cap edges bound thr ncols (s1 s2 : list (list rrow)) :
  0 <= cap -> Forall (fun b => none_free b = true) s1 -> Forall (fun b => none_free b = true) s2 ->
  concat s1 = concat s2 ->
  (forall j, card hash cap j (frames_raw s1) = card hash cap j (frames_raw s2)) /\
  (forall j, counter bound j (frames_raw s1) = counter bound j (frames_raw s2) /\
             hist edges bound j (frames_raw s1) = hist edges bound j (frames_raw s2)) /\
  Permutation (rare thr ncols (frames_raw s1)) (rare thr ncols (frames_raw s2)) /\
  (forall k, get key_eq_dec (rare thr ncols (frames_raw s1)) k = get key_eq_dec (rare thr ncols (frames_raw s2)) k).
Proof.
  intros Hc F1 F2 E. apply split_indep; [assumption|]. rewrite !frames_none_free by assumption. rewrite E. reflexivity.
Qed.

(* [frame_batch] works cell by cell, so it commutes with concatenation *)
Lemma frames_fill (s : list (list rrow)) : concat (frames s) = fill (concat s).
Proof. unfold frames, frame_batch, fill. symmetry. apply concat_map. Qed.

Lemma parsed_split_indep (hash : val -> N) cap edges bound thr ncols (s1 s2 : list (list rrow)) :
  0 <= cap -> concat s1 = concat s2 ->
  (forall j, card hash cap j (frames s1) = card hash cap j (frames s2)) /\
  (forall j, counter bound j (frames s1) = counter bound j (frames s2) /\
             hist edges bound j (frames s1) = hist edges bound j (frames s2)) /\
  Permutation (rare thr ncols (frames s1)) (rare thr ncols (frames s2)) /\
  (forall k, get key_eq_dec (rare thr ncols (frames s1)) k = get key_eq_dec (rare thr ncols (frames s2)) k).
Proof. intros Hc E. apply split_indep; [assumption|]. rewrite !frames_fill, E. reflexivity. Qed.

(* ... and the statistics are those of the filled table: an absent field is the empty string — a missing symbol
   by default, skipped by the sketch, the key '' of the counter and of the rare-value machine *)
Lemma parsed_card (hash : val -> N) cap j (s : list (list rrow)) : 0 <= cap ->
  card hash cap j (frames s) = card_spec hash cap (column j (fill (concat s))).
Proof. intro Hc. rewrite card_is_spec by assumption. rewrite frames_fill. reflexivity. Qed.

(* None cells break it when the functions see pandas' own frame: pandas stores nan (truthy, a key of its own) when the batch's column also holds
   strings and None (falsy, another key) when it does not.  Rows [None; a; None] in one batch or cut 1 | 2 *)
Lemma none_cells_refuted :
  exists (hash : val -> N) (s1 s2 s3 : list (list rrow)),
    concat s1 = concat s2 /\ concat s1 = concat s3 /\
    card hash 262144 0 (frames_raw s1) = Some 2%nat /\ card hash 262144 0 (frames_raw s2) = Some 1%nat /\
    hist [0; 1] 30000 0 (frames_raw s1) = [2; 1] /\ hist [0; 1] 30000 0 (frames_raw s3) = [3; 0] /\
    rare 1 1 (frames_raw s1) = [((0%nat, V [97%N]), 1)] /\
    rare 1 1 (frames_raw s3) = [((0%nat, PyNone), 1); ((0%nat, V [97%N]), 1); ((0%nat, NaN), 1)].
Proof.
  exists (fun v => match v with V [x] => x | NaN => 1%N | _ => 0%N end),
         [[[None]; [Some (V [97%N])]; [None]]], [[[None]]; [[Some (V [97%N])]]; [[None]]], [[[None]]; [[Some (V [97%N])]; [None]]].
  vm_compute. repeat split; reflexivity.
Qed.

Module Examples.
  Definition a : val := V [97%N]. Definition b : val := V [98%N]. Definition c : val := V [99%N].
  Definition e : val := V []. Definition na : val := V [78%N; 65%N].
  Definition h1 (v : val) : N := match v with V [x] => x | _ => 0%N end.
  Definition rows : list row := [[a; e]; [a; b]; [a; na]; [b; e]; [a; b]; [c; e]].
  Definition sp1 : list batch := cut [4; 2]%nat rows.
  Definition sp2 : list batch := cut [1; 2; 3]%nat rows.

  Example ex_split : concat sp1 = concat sp2 /\ sp1 <> sp2 /\
    card h1 262144 0 sp1 = Some 3%nat /\ hist default_edges 30000 0 sp1 = [3; 1; 0; 0; 0; 0; 0] /\
    rare 2 2 sp1 = [((0%nat, b), 1); ((1%nat, b), 2); ((1%nat, na), 1); ((0%nat, c), 1)] /\
    rare 2 2 sp2 = [((1%nat, b), 2); ((1%nat, na), 1); ((0%nat, b), 1); ((0%nat, c), 1)].
  Proof. vm_compute. repeat split; try reflexivity. discriminate. Qed.

  (* card_exact: hypotheses hold for column 0 of the table, three distinct non-empty values *)
  Example ex_card_inj :
    let col := column 0 (concat sp1) in
    (forall u v, In u col -> In v col -> truthy u = true -> truthy v = true -> h1 u = h1 v -> u = v) /\
    Z.of_nat (distinct_truthy col) <= 262144 /\ distinct_truthy col = 3%nat.
  Proof.
    cbv zeta. split; [|vm_compute; split; [discriminate|reflexivity]].
    intros u v Iu Iv _ _. vm_compute in Iu, Iv.
    repeat (destruct Iu as [Iu|Iu]; [subst u|]); try contradiction;
      repeat (destruct Iv as [Iv|Iv]; [subst v|]); try contradiction; vm_compute; congruence.
  Qed.

  (* empty strings are not counted; the other missing markers are *)
  Example ex_card_empty : card h1 262144 1 sp1 = Some 2%nat /\ card_spec h1 262144 [e; na; e] = Some 1%nat.
  Proof. vm_compute. split; reflexivity. Qed.

  (* a full sketch: one more distinct hash than the capacity and the claim ends *)
  Example ex_card_cold : card h1 2 0 sp1 = None /\ card h1 3 0 sp1 = Some 3%nat.
  Proof. vm_compute. split; reflexivity. Qed.

  Example ex_hist_hyp : Z.of_nat (length (nodup val_eq_dec (column 0 (concat sp1)))) < 30000.
  Proof. vm_compute. reflexivity. Qed.

  (* the bound hypothesis is needed: with 2 slots the third value and every later cell are dropped *)
  Example ex_hist_bound : hist [0; 1] 2 0 sp1 = [2; 1] /\ hist_spec [0; 1] (column 0 (concat sp1)) = [3; 1] /\
                          hist [0; 1] 2 0 sp2 = [2; 1].
  Proof. vm_compute. repeat split; reflexivity. Qed.

  (* a is retired in the first batch of sp1 (3 > 2) and stays out although it comes back *)
  Example ex_rare_retire :
    get key_eq_dec (rare 2 2 sp1) (0%nat, a) = 0 /\ total 2 (concat sp1) (0%nat, a) = 4 /\
    In (0%nat, a) (snd (rv_run 2 2 sp1)) /\ get key_eq_dec (rare_old 2 2 sp1) (0%nat, a) = 1.
  Proof. repeat split; try (vm_compute; reflexivity). apply (memb_true key_eq_dec). vm_compute. reflexivity. Qed.

  Example ex_cov : cov_batch [[]; [78%N; 65%N]] (column 1 (concat sp1)) == 100 # 3 /\
                   cov_annot (coverages (split_on 44 [44%N; 78%N; 65%N]) 1 sp1) = 37 /\
                   cov_annot (coverages (split_on 44 [44%N; 78%N; 65%N]) 1 sp2) = 27.
  Proof. vm_compute. repeat split; reflexivity. Qed.

  (* rounding to one decimal before truncating: 99.96 -> 100, 99.94 -> 99, the tie 99.95 -> 100 *)
  Example ex_round : cov_annot [9996 # 100] = 100 /\ cov_annot [9994 # 100] = 99 /\ cov_annot [9995 # 100] = 100 /\
                     cov_annot [100 # 1; 999 # 10] = 100 /\ cov_annot [4995 # 100] = 50 /\ cov_annot [4985 # 100] = 49.
  Proof. vm_compute. repeat split; reflexivity. Qed.
  (* coverage: a None cell (nan or None in the frame) is not a missing symbol and the denominator is the
     number of rows: ['u', None, '{}', 'v'] with symbols '', '{}' is 75 *)
  Example ex_cov_none :
    cov_batch [[]; [123%N; 125%N]] (column 0 (frame_raw [[Some (V [117%N])]; [None]; [Some (V [123%N; 125%N])]; [Some (V [118%N])]])) == 75 /\
    cov_batch [[]; [123%N; 125%N]] (column 0 (frame_raw [[None]; [None]])) == 100.
  Proof. vm_compute. split; reflexivity. Qed.

  (* the frame of a batch: None becomes nan next to strings, stays None in an all-None column *)
  Example ex_frame : frame_raw [[Some (V [97%N]); None]; [None; None]] = [[a; PyNone]; [NaN; PyNone]].
  Proof. reflexivity. Qed.
End Examples.
