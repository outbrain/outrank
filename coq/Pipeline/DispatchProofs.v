(* C05 — facts about the GENERATED dispatch table (Gen/Dispatch.v) and the GENERATED list of documented
   heuristic names (Gen/DocNames.v).  Both files are rewritten from the repo on every run, so these proofs
   are re-checked against the current source each time.  The finite facts are closed by vm_compute (the
   domain is the finite generated list); [flag_only_randomized] is a statement about ALL strings and is
   proved by case analysis over the generated chain. *)
From Coq Require Import String Ascii.
From Coq Require Import List NArith Bool.
From Outrank Require Import Pipeline.RankGraph Pipeline.RankGraphProofs Gen.Dispatch Gen.DocNames.
Import ListNotations.
Open Scope string_scope.

Lemma dispatch_table :
  dispatch (s_of "MI") = SkMI /\
  dispatch (s_of "MI-numba-3mr") = NumbaMI false /\
  dispatch (s_of "MI-numba") = NumbaMI false /\
  dispatch (s_of "MI-numba-randomized") = NumbaMI true /\
  dispatch (s_of "max-value-coverage") = MaxCov /\
  dispatch (s_of "correlation-Pearson") = Pearson /\
  dispatch (s_of "AMI") = AMI /\
  dispatch (s_of "Constant") = Const.
Proof. vm_compute. repeat split; reflexivity. Qed.

Lemma plugin_names : forall h, h = s_of "MI" \/ h = s_of "MI-numba" \/ h = s_of "MI-numba-3mr" ->
  is_const_name h = false /\ (dispatch h = SkMI \/ dispatch h = NumbaMI false).
Proof. intros h [->|[->| ->]]; vm_compute; auto. Qed.

(* a name that is neither documented nor known falls through to the warning + constant branch *)
Lemma dispatch_unknown_is_fallback : dispatch (s_of "no-such-heuristic") = Fallback.
Proof. vm_compute. reflexivity. Qed.

(* NO documented name falls through to the warning + constant branch (no exemption: surrogate names must reach the
   surrogate scorer) *)
Lemma no_silent_constant : forall name, In name doc_names -> dispatch name <> Fallback.
Proof.
  assert (H : forallb (fun h => negb (scorer_eqb (dispatch h) Fallback)) doc_names = true)
    by (vm_compute; reflexivity).
  rewrite forallb_forall in H. intros name Hin E. specialize (H name Hin).
  rewrite E in H. simpl in H. discriminate H.
Qed.

(* the quantifier is not empty, and the default of --heuristic is a documented name *)
Lemma doc_names_nonvacuous :
  In (s_of "MI-numba-randomized") doc_names /\ (2 <= length doc_names)%nat.
Proof.
  split; [|vm_compute; repeat constructor].
  apply smem_in. vm_compute. reflexivity.
Qed.

(* only the exact name MI-numba-randomized switches the cardinality correction on (all strings) *)
Lemma flag_only_randomized : forall h, dispatch h = NumbaMI true -> h = s_of "MI-numba-randomized".
Proof.
  intros h. unfold dispatch.
  (* every branch of the chain returns a fixed tag, except the 'MI-numba' one: it returns NumbaMI applied to the very
     test h == 'MI-numba-randomized', so a true flag is that test succeeding *)
  repeat match goal with |- context [if ?c then _ else _] => destruct c end;
    intros H; try discriminate H.
  injection H as H. apply seqb_eq. exact H.
Qed.

Lemma numba_family_plain : forall h, dispatch h = NumbaMI false -> h <> s_of "MI-numba-randomized".
Proof.
  intros h H E. subst h. revert H. vm_compute. discriminate.
Qed.

(* the no-scoring shortcut of mixed_rank_graph is taken exactly for the name the dispatch maps to Const (all strings) *)
Lemma const_branch_iff : forall h, is_const_name h = true <-> dispatch h = Const.
Proof.
  intros h. split.
  - unfold is_const_name. intros E.
    repeat match type of E with
           | negb _ = true => apply negb_true_iff in E
           end.
    apply seqb_eq in E. subst h. vm_compute. reflexivity.
  - unfold dispatch.
    repeat match goal with |- context [if ?c then _ else _] => destruct c eqn:? end;
      intros H; try discriminate H.
    all: unfold is_const_name; assumption.
Qed.

(* 3MR mode ('3mr' in the name) is only ever combined with the plain numba estimator among the known names *)
Lemma three_mr_names_plain :
  (forall name, In name doc_names -> is_3mr_name name = true -> dispatch name = NumbaMI false) /\
  is_3mr_name (s_of "MI-numba-3mr") = true /\ is_3mr_name (s_of "MI-numba-randomized") = false /\
  is_3mr_name (s_of "MI") = false /\ is_3mr_name (s_of "Constant") = false.
Proof.
  split; [|vm_compute; repeat split; reflexivity].
  assert (H : forallb (fun h => negb (is_3mr_name h) || scorer_eqb (dispatch h) (NumbaMI false)) doc_names = true)
    by (vm_compute; reflexivity).
  rewrite forallb_forall in H. intros name Hin E. specialize (H name Hin). rewrite E in H. simpl in H.
  destruct (dispatch name) as [| | |[|]| | | |]; simpl in H; try discriminate H; reflexivity.
Qed.
