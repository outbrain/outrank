(* C05 — the value carried by every row of a batch, per heuristic tag (Pipeline/Scorers.v), tied to the MI theorems
   of MI/Proofs.v (imported read-only): plugin_identity (C01_plugin), corrected_identity (C03_identity),
   corrected_self (C03_self). *)
From Coq Require Import Reals List NArith ZArith QArith Qreals Bool Lia.
From Outrank Require Import Common.RSum MI.Model MI.Spec MI.Proofs.
From Outrank Require Import Pipeline.RankGraph Pipeline.RankGraphProofs Pipeline.Scorers.
Import ListNotations.
Close Scope Q_scope.

(* ---- columns of a well-formed frame ------------------------------------------------------------- *)

Lemma col_spec : forall (f : frame) name cells, NoDup (map fst f) -> In (name, cells) f -> col f name = cells.
Proof.
  unfold col. induction f as [|[n0 c0] f IH]; intros name cells ND Hin; simpl in *.
  - contradiction.
  - inversion ND as [|? ? Hn ND']; subst.
    destruct (seqb n0 name) eqn:E.
    + apply seqb_eq in E. subst. destruct Hin as [Hin|Hin].
      * injection Hin as <-. reflexivity.
      * exfalso. apply Hn. change name with (fst (name, cells)). apply in_map. exact Hin.
    + apply seqb_neq in E. destruct Hin as [Hin|Hin].
      * injection Hin as -> _. congruence.
      * apply IH; assumption.
Qed.

Lemma col_in : forall (f : frame) name, In name (map fst f) -> In (name, col f name) f.
Proof.
  unfold col. induction f as [|[n0 c0] f IH]; intros name Hin; simpl in *.
  - contradiction.
  - destruct (seqb n0 name) eqn:E.
    + apply seqb_eq in E. subst. left. reflexivity.
    + apply seqb_neq in E. destruct Hin as [Hin|Hin]; [congruence|]. right. apply IH. exact Hin.
Qed.

Lemma col_length : forall f n name, wf_frame f n -> In name (map fst f) -> length (col f name) = n.
Proof.
  intros f n name [_ [_ Hl]] Hin. apply (Hl (name, col f name)). apply col_in. exact Hin.
Qed.

Lemma zc_length : forall l, length (zc l) = length l.
Proof. intros l. unfold zc. apply map_length. Qed.

Lemma zc_inj : forall a b, zc a = zc b -> a = b.
Proof.
  unfold zc. induction a as [|x a IH]; destruct b as [|y b]; simpl; intros E; try discriminate; auto.
  injection E as E1 E2. apply N2Z.inj in E1. subst. f_equal. auto.
Qed.

Lemma zcodes_length : forall f n name, wf_frame f n -> In name (map fst f) ->
  length (zc (codes (col f name))) = n.
Proof. intros. rewrite zc_length, codes_length. eapply col_length; eauto. Qed.

Section RowValue.
  Variable disp : list N -> scorer.
  Variable isc : list N -> bool.

  (* Constant shortcut: exactly one row per evaluated combination, in the listed orientation, value 0 *)
  Lemma rows_for_const : forall h f lbl pairs, isc h = true ->
    rows_for disp isc h f lbl pairs = map (fun p => (fst p, snd p, Some 0%R)) pairs.
  Proof. intros h f lbl pairs E. unfold rows_for, rank_rows_h. rewrite E. reflexivity. Qed.

  Lemma rows_for_scored : forall h f lbl pairs, isc h = false ->
    rows_for disp isc h f lbl pairs = rank_rows (sem (disp h)) f lbl pairs.
  Proof. intros h f lbl pairs E. unfold rows_for, rank_rows_h. rewrite E. reflexivity. Qed.

  Lemma rows_scored : forall h f lbl pairs, isc h = false ->
    rows_for disp isc h f lbl pairs = rank_rows (sem (disp h)) f lbl pairs /\
    forall a b, In (a, b) pairs ->
      In (a, b, eval_pair (sem (disp h)) f lbl (a, b)) (rows_for disp isc h f lbl pairs) /\
      In (b, a, eval_pair (sem (disp h)) f lbl (a, b)) (rows_for disp isc h f lbl pairs).
  Proof.
    intros h f lbl pairs E. rewrite rows_for_scored by exact E. split; [reflexivity|].
    intros a b Hin. exact (rank_rows_complete (sem (disp h)) f lbl pairs a b Hin).
  Qed.

  Lemma rows_const_value : forall h f lbl pairs a b x, isc h = true ->
    In (a, b, x) (rows_for disp isc h f lbl pairs) -> In (a, b) pairs /\ x = Some 0%R.
  Proof.
    intros h f lbl pairs a b x E Hin. rewrite rows_for_const in Hin by exact E.
    apply in_map_iff in Hin. destruct Hin as [[a0 b0] [Ep Hp]]. cbn [fst snd] in Ep. injection Ep as -> -> <-. auto.
  Qed.

  (* every row of a scored batch: an evaluated pair or its mirror, carrying the MEANING of the selected scorer on the
     codes of the two (existing, uniquely named) columns, the label conditioning whenever it is in the pair *)
  Lemma row_value : forall h f n lbl pairs a b x,
    wf_frame f n -> pairs_in f pairs -> isc h = false ->
    In (a, b, x) (rows_for disp isc h f lbl pairs) ->
    exists p F T cF cT,
      In p pairs /\ ((a, b) = p \/ (a, b) = (snd p, fst p)) /\
      (F, T) = orient lbl p /\ In (F, cF) f /\ In (T, cT) f /\
      length cF = n /\ length cT = n /\
      (fst p = lbl \/ snd p = lbl -> T = lbl) /\
      x = sem (disp h) (codes cF) (codes cT).
  Proof.
    intros h f n lbl pairs a b x WF PI E Hin.
    rewrite rows_for_scored in Hin by exact E.
    destruct (rank_rows_spec (sem (disp h)) f lbl pairs (a, b, x) Hin) as [a0 [b0 [Hp [Hrow [Hval Hor]]]]].
    destruct (PI _ Hp) as [Ha0 Hb0]. simpl in Ha0, Hb0.
    assert (HF : In (fst (orient lbl (a0, b0))) (map fst f) /\ In (snd (orient lbl (a0, b0))) (map fst f)).
    { destruct (orient_same_columns lbl a0 b0) as [-> | ->]; simpl; auto. }
    destruct HF as [HF HT].
    exists (a0, b0), (fst (orient lbl (a0, b0))), (snd (orient lbl (a0, b0))),
           (col f (fst (orient lbl (a0, b0)))), (col f (snd (orient lbl (a0, b0)))).
    repeat split.
    - exact Hp.
    - simpl. destruct Hrow as [Hrow|Hrow]; injection Hrow as -> -> _; auto.
    - destruct (orient lbl (a0, b0)); reflexivity.
    - apply col_in. exact HF.
    - apply col_in. exact HT.
    - eapply col_length; eauto.
    - eapply col_length; eauto.
    - simpl. exact Hor.
    - rewrite <- Hval. destruct Hrow as [Hrow|Hrow]; injection Hrow as _ _ ->; reflexivity.
  Qed.
End RowValue.

(* ---- what the tags mean, in the words of the property -------------------------------------------- *)

(* MI (sklearn, specified) and the numba estimator without correction: plug-in mutual information *)
Lemma sem_plugin : forall s F T, s = SkMI \/ s = NumbaMI false ->
  length F = length T -> (0 < length T)%nat ->
  sem s F T = Some (MI_plugin (zc F) (zc T)).
Proof.
  intros s F T [-> | ->] HL Hp; simpl; [reflexivity|].
  f_equal. apply plugin_identity; rewrite !zc_length; assumption.
Qed.

(* the corrected score: displaced-copy noise floor minus conditional entropy; entropy for identical code vectors *)
Lemma sem_corrected : forall F T, length F = length T -> (0 < length T)%nat ->
  (F <> T -> sem (NumbaMI true) F T = Some (Hcond (displace (zc F) (zc T)) (zc T) - Hcond (zc F) (zc T))%R) /\
  (F = T -> sem (NumbaMI true) F T = Some (Spec.H (zc F))).
Proof.
  intros F T HL Hp. split; intros E; simpl; f_equal.
  - apply corrected_identity; rewrite ?zc_length; auto. intros Z. apply E. apply zc_inj. exact Z.
  - subst. apply corrected_self. rewrite zc_length. exact Hp.
Qed.

Lemma sem_maxcov : forall F T, sem MaxCov F T = Some (Q2R (maxcov F T)).
Proof. reflexivity. Qed.

Lemma sem_const : forall F T, sem Const F T = Some 0%R.
Proof. reflexivity. Qed.
