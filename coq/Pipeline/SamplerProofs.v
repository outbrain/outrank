(* C07 — fairness (all counts on L within one of each other, [fair]) is an invariant of the relation [valid_step];
   the transcription [step] and every history the boolean checker accepts are instances of the relation and inherit it. *)
From Coq Require Import List Arith ZArith Bool Lia Permutation Sorted ZifyBool.
From Outrank Require Import Common.ListFacts Common.Sort Pipeline.Sampler.
Import ListNotations.

Local Notation cocc := (count_occ Nat.eq_dec).

(* ---------- assoc-list counter read as a function ---------- *)
Lemma get_notin s k : ~ In k (map fst s) -> get s k = 0.
Proof.
  induction s as [|[k' c] r IH]; intros H; [reflexivity|]. cbn [get].
  destruct (Nat.eqb k k') eqn:E.
  - apply Nat.eqb_eq in E. subst. exfalso. apply H. now left.
  - apply IH. intros Hin. apply H. now right.
Qed.

Lemma get_app_zero s k0 k : get (s ++ [(k0, 0)]) k = get s k.
Proof.
  induction s as [|[k' c] r IH]; cbn [get app].
  - destruct (Nat.eqb k k0); reflexivity.
  - destruct (Nat.eqb k k'); [reflexivity|exact IH].
Qed.

Lemma get_add_missing L : forall s k, get (add_missing s L) k = get s k.
Proof.
  unfold add_missing. induction L as [|a L IH]; intros s k; [reflexivity|].
  cbn [fold_left]. rewrite IH. destruct (mem s a); [reflexivity|apply get_app_zero].
Qed.

Lemma get_incr s k x : get (incr s k) x = get s x + (if Nat.eqb x k then 1 else 0).
Proof.
  induction s as [|[k' c] r IH]; cbn [incr get].
  - destruct (Nat.eqb x k); reflexivity.
  - destruct (Nat.eqb k k') eqn:E; cbn [get].
    + apply Nat.eqb_eq in E. subst k'. destruct (Nat.eqb x k); lia.
    + destruct (Nat.eqb x k') eqn:E2.
      * apply Nat.eqb_eq in E2. subst k'. rewrite Nat.eqb_sym, E. lia.
      * exact IH.
Qed.

Lemma cocc_cons a l k : cocc (a :: l) k = (if Nat.eqb k a then 1 else 0) + cocc l k.
Proof.
  cbn [count_occ]. destruct (Nat.eq_dec a k) as [->|N].
  - rewrite Nat.eqb_refl. reflexivity.
  - destruct (Nat.eqb k a) eqn:E; [apply Nat.eqb_eq in E; congruence|reflexivity].
Qed.

Lemma get_fold_incr sel : forall s k, get (fold_left incr sel s) k = get s k + cocc sel k.
Proof.
  induction sel as [|a sel IH]; intros s k; [cbn; lia|].
  cbn [fold_left]. rewrite IH, get_incr, cocc_cons. lia.
Qed.

Definition leb_by (f : key -> nat) (a b : key) : bool := Nat.leb (f a) (f b).

Lemma sort_by_isort f l : sort_by f l = isort (leb_by f) l.
Proof.
  assert (I : forall k t, insert_by f k t = ins (leb_by f) k t).
  { intros k t. induction t as [|h t IH]; [reflexivity|]. cbn [insert_by ins]. rewrite IH. reflexivity. }
  induction l as [|a l IH]; [reflexivity|]. unfold sort_by, isort in *. cbn [fold_right]. rewrite IH. apply I.
Qed.

Lemma sort_by_perm f l : Permutation (sort_by f l) l.
Proof. rewrite sort_by_isort. apply isort_perm. Qed.

Lemma sort_by_sorted f l : StronglySorted (fun a b => leb_by f a b = true) (sort_by f l).
Proof.
  rewrite sort_by_isort. apply isort_sorted; unfold leb_by.
  - intros x y. rewrite !Nat.leb_le. lia.
  - intros x y z. rewrite !Nat.leb_le. lia.
Qed.

Lemma sorted_app_le f l1 : forall l2 a b,
  StronglySorted (fun a b => leb_by f a b = true) (l1 ++ l2) -> In a l1 -> In b l2 -> f a <= f b.
Proof.
  induction l1 as [|h t IH]; intros l2 a b Hs Ha Hb; [contradiction|].
  cbn [app] in Hs. inversion Hs as [|? ? Hs' Hall]; subst.
  destruct Ha as [->|Ha].
  - rewrite Forall_forall in Hall. apply Nat.leb_le, Hall. apply in_or_app. now right.
  - eapply IH; eassumption.
Qed.

Lemma cocc_notin (l : list key) k : ~ In k l -> cocc l k = 0.
Proof. apply count_occ_not_In. Qed.

Lemma cocc_in (l : list key) k : In k l <-> 0 < cocc l k.
Proof. apply count_occ_In. Qed.

Lemma cocc_firstn_skipn m (l : list key) k : cocc l k = cocc (firstn m l) k + cocc (skipn m l) k.
Proof. rewrite <- (firstn_skipn m l) at 1. apply count_occ_app. Qed.

Lemma slice_len_le len cap : slice_len len cap <= len.
Proof. unfold slice_len. destruct (Z.ltb_spec cap 0); lia. Qed.

Lemma slice_len_nonneg len cap : (0 <= cap)%Z -> slice_len len cap = Nat.min len (Z.to_nat cap).
Proof. intros H. unfold slice_len. destruct (Z.ltb_spec cap 0); [lia|reflexivity]. Qed.

Lemma slice_len_full len cap : (Z.of_nat len <= cap)%Z -> slice_len len cap = len.
Proof. intros H. rewrite slice_len_nonneg; lia. Qed.

Theorem step_valid s L cap :
  valid_step (get s) L cap (fst (step s L cap)) (get (snd (step s L cap))).
Proof.
  unfold step. destruct L as [|l0 L'].
  - cbn [fst snd]. constructor.
    + intros k. cbn. lia.
    + cbn [length]. pose proof (slice_len_le 0 cap). lia.
    + intros a b [].
    + intros k. cbn. lia.
  - set (L := l0 :: L'). set (s1 := add_missing s L). set (S := sort_by (get s1) L).
    set (m := slice_len (length L) cap). cbn [fst snd].
    assert (HP : Permutation S L) by apply sort_by_perm.
    constructor.
    + intros k. rewrite <- (proj1 (Permutation_count_occ Nat.eq_dec _ _) HP k), (cocc_firstn_skipn m S k). lia.
    + rewrite firstn_length, (Permutation_length HP). pose proof (slice_len_le (length L) cap). fold m in H. lia.
    + intros a b Ha Hlt.
      rewrite <- (proj1 (Permutation_count_occ Nat.eq_dec _ _) HP b), (cocc_firstn_skipn m S b) in Hlt.
      assert (Hb : In b (skipn m S)) by (apply cocc_in; lia).
      pose proof (sort_by_sorted (get s1) L) as Hs. fold S in Hs. rewrite <- (firstn_skipn m S) in Hs.
      pose proof (sorted_app_le _ _ _ a b Hs Ha Hb) as Hle.
      unfold s1 in Hle. rewrite !get_add_missing in Hle. exact Hle.
    + intros k. rewrite get_fold_incr. unfold s1. rewrite get_add_missing. reflexivity.
Qed.

Theorem valid_stepb_sound s L cap sel s' :
  valid_stepb s L cap sel s' = true -> valid_step (get s) L cap sel (get s').
Proof.
  unfold valid_stepb, cnt. rewrite !andb_true_iff. intros [[[H1 H2] H3] H4].
  rewrite forallb_forall in H1, H3, H4. constructor.
  - intros k. destruct (in_dec Nat.eq_dec k sel) as [Hin|Hnin].
    + apply Nat.leb_le. apply H1. exact Hin.
    + rewrite (cocc_notin sel k Hnin). lia.
  - apply Nat.eqb_eq. exact H2.
  - intros a b Ha Hlt. specialize (H3 a Ha). rewrite forallb_forall in H3.
    assert (Hb : In b L) by (apply cocc_in; lia).
    specialize (H3 b Hb). apply orb_true_iff in H3. destruct H3 as [H3|H3].
    + apply negb_true_iff, Nat.ltb_ge in H3. lia.
    + apply Nat.leb_le. exact H3.
  - intros k. destruct (in_dec Nat.eq_dec k (map fst s ++ map fst s' ++ L ++ sel)) as [Hin|Hnin].
    + apply Nat.eqb_eq. apply H4. exact Hin.
    + rewrite !in_app_iff in Hnin.
      rewrite (get_notin s k), (get_notin s' k) by tauto.
      rewrite (cocc_notin sel k) by tauto. reflexivity.
Qed.

Lemma valid_step_ext st1 st2 st1' st2' L cap sel :
  (forall k, st1 k = st2 k) -> (forall k, st1' k = st2' k) ->
  valid_step st1 L cap sel st1' -> valid_step st2 L cap sel st2'.
Proof.
  intros E E' [H1 H2 H3 H4]. constructor; [exact H1|exact H2| |].
  - intros a b Ha Hb. rewrite <- !E. apply H3; assumption.
  - intros k. rewrite <- E, <- E'. apply H4.
Qed.

Lemma valid_stepb_complete s L cap sel s' :
  valid_step (get s) L cap sel (get s') -> valid_stepb s L cap sel s' = true.
Proof.
  intros [H1 H2 H3 H4]. unfold valid_stepb, cnt. rewrite !andb_true_iff. repeat split.
  - apply forallb_forall. intros k _. apply Nat.leb_le. apply H1.
  - apply Nat.eqb_eq. exact H2.
  - apply forallb_forall. intros a Ha. apply forallb_forall. intros b _.
    destruct (Nat.ltb (cocc sel b) (cocc L b)) eqn:E; cbn [negb orb]; [|reflexivity].
    apply Nat.leb_le. apply H3; [exact Ha|]. apply Nat.ltb_lt. exact E.
  - apply forallb_forall. intros k _. apply Nat.eqb_eq. apply H4.
Qed.

Lemma vs_incl st L cap sel st' : valid_step st L cap sel st' -> incl sel L.
Proof.
  intros V a Ha. apply cocc_in. pose proof (vs_sub _ _ _ _ _ V a). apply cocc_in in Ha. lia.
Qed.

Lemma vs_nodup st L cap sel st' : NoDup L -> valid_step st L cap sel st' -> NoDup sel.
Proof.
  intros Hnd V. apply (NoDup_count_occ Nat.eq_dec). intros k.
  pose proof (vs_sub _ _ _ _ _ V k). pose proof (proj1 (NoDup_count_occ Nat.eq_dec L) Hnd k). lia.
Qed.

Theorem vs_exact st L cap sel st' :
  NoDup L -> (0 <= cap < Z.of_nat (length L))%Z -> valid_step st L cap sel st' ->
  Z.of_nat (length sel) = cap /\ NoDup sel.
Proof.
  intros Hnd Hc V. split; [|eapply vs_nodup; eassumption].
  rewrite (vs_len _ _ _ _ _ V), slice_len_nonneg; lia.
Qed.

Theorem vs_least_first st L cap sel st' :
  valid_step st L cap sel st' ->
  forall a b, In a sel -> In b L -> ~ In b sel -> st a <= st b.
Proof.
  intros V a b Ha Hb Hnb. apply (vs_least _ _ _ _ _ V); [exact Ha|].
  rewrite (cocc_notin sel b Hnb). apply cocc_in. exact Hb.
Qed.

Definition fair (L : list key) (st : state) : Prop := exists m, forall a, In a L -> m <= st a <= S m.

Lemma cocc_nodup_in (l : list key) k : NoDup l -> In k l -> cocc l k = 1.
Proof.
  intros Hnd Hin. pose proof (proj1 (NoDup_count_occ Nat.eq_dec l) Hnd k). apply cocc_in in Hin. lia.
Qed.

Lemma fair_step st L cap sel st' : NoDup L -> fair L st -> valid_step st L cap sel st' -> fair L st'.
Proof.
  intros HndL [m Hm] V. pose proof (vs_nodup _ _ _ _ _ HndL V) as Hnd.
  pose proof (vs_least_first _ _ _ _ _ V) as Hleast. pose proof (vs_state _ _ _ _ _ V) as Hst.
  (* the new floor is S m exactly when some selected candidate already stood at S m: then every unselected one does too *)
  destruct (existsb (fun a => Nat.eqb (st a) (S m)) sel) eqn:E.
  - apply existsb_exists in E. destruct E as [a0 [Ha0 Ea0]]. apply Nat.eqb_eq in Ea0.
    exists (S m). intros b Hb. rewrite Hst. pose proof (Hm b Hb).
    destruct (in_dec Nat.eq_dec b sel) as [Hin|Hnin].
    + rewrite cocc_nodup_in by assumption. lia.
    + rewrite (cocc_notin sel b Hnin). pose proof (Hleast a0 b Ha0 Hb Hnin). lia.
  - exists m. intros b Hb. rewrite Hst. pose proof (Hm b Hb).
    destruct (in_dec Nat.eq_dec b sel) as [Hin|Hnin].
    + rewrite cocc_nodup_in by assumption.
      assert (st b <> S m); [|lia].
      intros Heq. rewrite <- not_true_iff_false in E. apply E, existsb_exists.
      exists b. split; [assumption|]. apply Nat.eqb_eq. exact Heq.
    + rewrite (cocc_notin sel b Hnin). lia.
Qed.

Lemma fair_spread L st : fair L st -> forall a b, In a L -> In b L -> st a <= S (st b).
Proof. intros [m Hm] a b Ha Hb. pose proof (Hm a Ha). pose proof (Hm b Hb). lia. Qed.

(* any number of batches over one stable list, caps changing arbitrarily, any tie-breaking *)
Inductive reach (L : list key) : state -> Prop :=
| reach0 : reach L (fun _ => 0)
| reachS st cap sel st' : reach L st -> valid_step st L cap sel st' -> reach L st'.

(* Between two batches on L anything may happen to the counts of combinations OUTSIDE L (other candidate
   lists sampled on the same storage), and the storage need not start empty outside L: fairness on L survives. *)
Inductive reach_i (L : list key) : state -> Prop :=
| reach_i0 st0 : (forall k, In k L -> st0 k = 0) -> reach_i L st0
| reach_iS st cap sel st' : reach_i L st -> valid_step st L cap sel st' -> reach_i L st'
| reach_iF st st' : reach_i L st -> (forall k, In k L -> st' k = st k) -> reach_i L st'.

Lemma reach_reach_i L st : reach L st -> reach_i L st.
Proof. induction 1; [apply reach_i0; reflexivity|eapply reach_iS; eassumption]. Qed.

Lemma fair_frame L st st' : fair L st -> (forall k, In k L -> st' k = st k) -> fair L st'.
Proof. intros [m Hm] He. exists m. intros a Ha. rewrite (He a Ha). apply Hm. exact Ha. Qed.

Theorem reach_i_fair L st : NoDup L -> reach_i L st -> forall a b, In a L -> In b L -> st a <= S (st b).
Proof.
  intros HndL Hr. apply fair_spread.
  induction Hr as [st0 H0|st cap sel st' _ IH V|st st' _ IH He].
  - exists 0. intros a Ha. rewrite (H0 a Ha). lia.
  - eapply fair_step; eassumption.
  - eapply fair_frame; eassumption.
Qed.

Theorem reach_fair L st : NoDup L -> reach L st -> forall a b, In a L -> In b L -> st a <= S (st b).
Proof. intros Hnd Hr. apply reach_i_fair; [exact Hnd|apply reach_reach_i; exact Hr]. Qed.

(* arbitrary histories: candidate lists may change and contain duplicates *)
Inductive hist : list (list key) -> state -> Prop :=
| hist0 : hist [] (fun _ => 0)
| histS sels st L cap sel st' : hist sels st -> valid_step st L cap sel st' -> hist (sels ++ [sel]) st'.

Theorem hist_counts sels st : hist sels st -> forall k, st k = list_sum (map (fun sel => cocc sel k) sels).
Proof.
  induction 1 as [|sels st L cap sel st' _ IH V]; intros k; [reflexivity|].
  rewrite map_app, list_sum_app, (vs_state _ _ _ _ _ V), IH. cbn [map]. change (list_sum [cocc sel k]) with (cocc sel k + 0). rewrite Nat.add_0_r. reflexivity.
Qed.

(* ---------- the same statements for the executable transcription ---------- *)
Definition run_state (L : list key) (caps : list Z) : al :=
  fold_left (fun s c => snd (step s L c)) caps [].

Lemma run_state_reach L caps : reach L (get (run_state L caps)).
Proof.
  unfold run_state.
  assert (G : forall s, reach L (get s) -> reach L (get (fold_left (fun s c => snd (step s L c)) caps s))).
  { induction caps as [|c caps IH]; intros s Hs; [exact Hs|]. cbn [fold_left]. apply IH.
    eapply reachS; [exact Hs|apply step_valid]. }
  apply G, reach0.
Qed.

Theorem model_fair L caps : NoDup L ->
  forall a b, In a L -> In b L -> get (run_state L caps) a <= S (get (run_state L caps) b).
Proof. intros Hnd. apply reach_fair; [exact Hnd|apply run_state_reach]. Qed.

(* a checked implementation history is a history of the relation *)
Lemma valid_runb_reach L : forall caps s obs,
  reach L (get s) -> valid_runb s (map (fun c => (L, c)) caps) obs = true ->
  reach L (get (last (map snd obs) s)).
Proof.
  induction caps as [|c caps IH]; intros s obs Hs Hv.
  - destruct obs; [exact Hs|discriminate].
  - destruct obs as [|[sel s'] obs]; [discriminate|]. cbn [map valid_runb] in Hv.
    apply andb_true_iff in Hv. destruct Hv as [Hv1 Hv2].
    assert (Hs' : reach L (get s')) by (eapply reachS; [exact Hs|apply valid_stepb_sound; exact Hv1]).
    cbn [map snd]. rewrite last_cons_default. exact (IH s' obs Hs' Hv2).
Qed.

Theorem checked_history_fair L caps obs : NoDup L ->
  valid_runb [] (map (fun c => (L, c)) caps) obs = true ->
  forall a b, In a L -> In b L -> get (last (map snd obs) []) a <= S (get (last (map snd obs) []) b).
Proof.
  intros Hnd Hv. apply reach_fair; [exact Hnd|].
  apply (valid_runb_reach L caps [] obs); [apply reach0|exact Hv].
Qed.

(* non-vacuity: a 5-candidate history with caps 2;3;2;7;0 satisfies every hypothesis *)
Example ex_history :
  let L := [0; 1; 2; 3; 4] in
  let ops := map (fun c => (L, c)) [2; 3; 2; 7; 0]%Z in
  NoDup L /\ valid_runb [] ops (run [] ops) = true /\
  map (fun o => length (fst o)) (run [] ops) = [2; 3; 2; 5; 0] /\
  fairb L (run_state L [2; 3; 2; 7; 0]%Z) = true.
Proof.
  cbv zeta. split; [|vm_compute; auto].
  repeat constructor; cbn; intuition discriminate.
Qed.

(* A foreign step that touches a combination of L (two call sites sharing one storage keyed by the bare tuple — the
   behaviour repaired by fix 45d13a2) destroys the fairness of L: here candidate 0 is counted twice from outside. *)
Example shared_counter_refuted :
  exists (L : list key) (st st' st'' : state),
    NoDup L /\ reach L st /\ (st' 0 = st 0 + 2) /\ valid_step st' L 0 [] st'' /\ ~ (st'' 0 <= S (st'' 1)).
Proof.
  exists [0; 1], (fun _ => 0), (fun k => if Nat.eqb k 0 then 2 else 0), (fun k => if Nat.eqb k 0 then 2 else 0).
  split.
  { constructor; [cbn; intuition discriminate|]. constructor; [cbn; tauto|constructor]. }
  split; [constructor|]. split; [reflexivity|]. split.
  { constructor.
    - intros k. cbn. lia.
    - reflexivity.
    - intros a b [].
    - intros k. cbn. lia. }
  cbn. lia.
Qed.

(* ---------- call sites judged by their own selections; reported tables ---------- *)
Lemma sel_count_cons sel r k : sel_count (sel :: r) k = cocc sel k + sel_count r k.
Proof. reflexivity. Qed.

Lemma derived_last : forall sels s k,
  get (last (map snd (derived_obs s sels)) s) k = get s k + sel_count sels k.
Proof.
  induction sels as [|sel r IH]; intros s k.
  - cbn. lia.
  - cbn [derived_obs map snd].
    rewrite last_cons_default, IH, get_fold_incr, sel_count_cons. lia.
Qed.

Theorem selection_history_fair L caps sels : NoDup L ->
  valid_runb [] (map (fun c => (L, c)) caps) (derived_obs [] sels) = true ->
  forall a b, In a L -> In b L -> sel_count sels a <= S (sel_count sels b).
Proof.
  intros Hnd Hv a b Ha Hb.
  pose proof (checked_history_fair L caps (derived_obs [] sels) Hnd Hv a b Ha Hb) as H.
  rewrite !derived_last in H. cbn [get] in H. lia.
Qed.

Lemma sel_count_notin : forall sels k, ~ In k (concat sels) -> sel_count sels k = 0.
Proof.
  induction sels as [|sel r IH]; intros k Hn; [reflexivity|].
  rewrite sel_count_cons. cbn [concat] in Hn. rewrite IH by (intro; apply Hn, in_or_app; right; assumption).
  rewrite cocc_notin; [reflexivity|]. intro; apply Hn, in_or_app; left; assumption.
Qed.

Theorem reportb_sound sels rep : reportb sels rep = true ->
  forall k, get rep k = list_sum (map (fun sel => count_occ Nat.eq_dec sel k) sels).
Proof.
  intros H k. change (get rep k = sel_count sels k).
  unfold reportb in H. rewrite forallb_forall in H.
  destruct (in_dec Nat.eq_dec k (map fst rep ++ concat sels)) as [Hi|Hn].
  - apply Nat.eqb_eq, H, Hi.
  - rewrite get_notin by (intro; apply Hn, in_or_app; left; assumption).
    symmetry. apply sel_count_notin. intro; apply Hn, in_or_app; right; assumption.
Qed.

(* non-vacuity: a call site that forgets its counts between batches (every batch served from an empty table: the same first
   two candidates each time) is rejected by the derived history, while the faithful history is accepted; a merged report is
   rejected *)
Example ex_derived :
  let L := [0; 1; 2; 3; 4] in
  let ops := map (fun c => (L, c)) [2; 2; 2]%Z in
  valid_runb [] ops (derived_obs [] [[0; 1]; [2; 3]; [4; 0]]) = true /\
  valid_runb [] ops (derived_obs [] [[0; 1]; [0; 1]; [0; 1]]) = false /\
  reportb [[0; 1]; [2; 3]; [4; 0]] [(0, 2); (1, 1); (2, 1); (3, 1); (4, 1)] = true /\
  reportb [[0; 1]; [2; 3]; [4; 0]] [(0, 3); (1, 2); (2, 1); (3, 1); (4, 1)] = false.
Proof. vm_compute. auto. Qed.

(* ---------- the stored counter as an association list: its keys, their order, and histories of selections judged
   against it (what the composition with the rest of the pipeline uses) ---------- *)
Lemma mem_In s k : mem s k = true <-> In k (map fst s).
Proof.
  induction s as [|[k' c] r IH]; cbn [mem map fst In]; [split; [discriminate|tauto]|].
  destruct (Nat.eqb k k') eqn:E.
  - apply Nat.eqb_eq in E. subst. split; auto.
  - apply Nat.eqb_neq in E. rewrite IH. split; [auto|]. intros [H|H]; [congruence|exact H].
Qed.

Lemma add_missing_keys L : forall s,
  (forall k, In k (map fst (add_missing s L)) <-> In k (map fst s) \/ In k L) /\
  (NoDup (map fst s) -> NoDup (map fst (add_missing s L))).
Proof.
  unfold add_missing. induction L as [|a L IH]; intros s; cbn [fold_left].
  - split; [intros k; cbn; tauto|auto].
  - destruct (mem s a) eqn:E.
    + apply mem_In in E. destruct (IH s) as [I1 I2]. split; [|exact I2].
      intros k. rewrite I1. cbn [In]. split; [tauto|]. intros [H|[H|H]]; subst; auto.
    + destruct (IH (s ++ [(a, 0)])) as [I1 I2]. split.
      * intros k. rewrite I1, map_app, in_app_iff. cbn [map fst In]. tauto.
      * intros Hnd. apply I2. rewrite map_app. cbn [map fst].
        apply NoDup_app_intro; [exact Hnd|repeat constructor; intros []|].
        intros x Hx [<-|[]]. apply mem_In in Hx. congruence.
Qed.

Lemma incr_keys_in k : forall s, In k (map fst s) -> map fst (incr s k) = map fst s.
Proof.
  induction s as [|[k' c] r IH]; intros H; [destruct H|]. cbn [incr].
  destruct (Nat.eqb k k') eqn:E; [reflexivity|]. cbn [map fst]. f_equal. apply IH.
  destruct H as [H|H]; [|exact H]. cbn in H. apply Nat.eqb_neq in E. congruence.
Qed.

Lemma fold_incr_keys sel : forall s, incl sel (map fst s) -> map fst (fold_left incr sel s) = map fst s.
Proof.
  induction sel as [|a sel IH]; intros s H; [reflexivity|]. cbn [fold_left].
  assert (Ha : In a (map fst s)) by (apply H; now left).
  rewrite IH; [apply incr_keys_in; exact Ha|]. rewrite incr_keys_in by exact Ha. intros x Hx. apply H. now right.
Qed.

Lemma add_missing_in L : forall s, incl L (map fst s) -> add_missing s L = s.
Proof.
  unfold add_missing. induction L as [|a L IH]; intros s H; [reflexivity|]. cbn [fold_left].
  rewrite (proj2 (mem_In s a)) by (apply H; now left). apply IH. intros x Hx. apply H. now right.
Qed.

Lemma add_missing_fresh L : forall s, NoDup L -> (forall k, In k L -> ~ In k (map fst s)) ->
  add_missing s L = s ++ map (fun k => (k, 0)) L.
Proof.
  unfold add_missing. induction L as [|a L IH]; intros s Hnd Hf; cbn [fold_left map]; [symmetry; apply app_nil_r|].
  apply NoDup_cons_iff in Hnd. destruct Hnd as [Ha Hnd].
  destruct (mem s a) eqn:E; [apply mem_In in E; destruct (Hf a (or_introl eq_refl) E)|].
  rewrite IH, <- app_assoc; [reflexivity|exact Hnd|].
  intros k Hk. rewrite map_app, in_app_iff. cbn [map fst In].
  intros [H|[<-|[]]]; [exact (Hf k (or_intror Hk) H)|exact (Ha Hk)].
Qed.

(* incrementing never changes the keys: after a call they are those [add_missing] leaves, in its order *)
Lemma step_keys_eq s L cap : map fst (snd (step s L cap)) = map fst (add_missing s L).
Proof.
  pose proof (step_valid s L cap) as V. apply vs_incl in V.
  unfold step in *. destruct L as [|l0 L']; [reflexivity|]. cbn [snd fst] in *.
  apply fold_incr_keys. intros x Hx. apply (proj1 (add_missing_keys _ s)). right. apply V. exact Hx.
Qed.

Lemma step_keys_in s L cap : incl L (map fst s) -> map fst (snd (step s L cap)) = map fst s.
Proof. intros H. rewrite step_keys_eq, add_missing_in by exact H. reflexivity. Qed.

Lemma step_keys_fresh L cap : NoDup L -> map fst (snd (step [] L cap)) = L.
Proof.
  intros H. rewrite step_keys_eq, add_missing_fresh; [|exact H|intros k _ []].
  cbn [app]. rewrite map_map. apply map_id.
Qed.

(* a counter with distinct keys is its keys with the counts [get] reads *)
Lemma al_eta s : NoDup (map fst s) -> s = map (fun k => (k, get s k)) (map fst s).
Proof.
  induction s as [|[k c] r IH]; intros H; [reflexivity|]. cbn [map fst] in *.
  apply NoDup_cons_iff in H. destruct H as [Hk Hr]. cbn [get]. rewrite Nat.eqb_refl. f_equal.
  rewrite (IH Hr) at 1. apply map_ext_in. intros k' Hk'.
  destruct (Nat.eqb k' k) eqn:E; [apply Nat.eqb_eq in E; subst; contradiction|reflexivity].
Qed.

Lemma get_map_keys (f : key -> nat) L k : In k L -> get (map (fun k => (k, f k)) L) k = f k.
Proof.
  induction L as [|h L IH]; intros H; [destruct H|]. cbn [map get].
  destruct (Nat.eqb k h) eqn:E; [apply Nat.eqb_eq in E; subst; reflexivity|].
  apply IH. destruct H as [H|H]; [|exact H]. apply Nat.eqb_neq in E. congruence.
Qed.

Lemma valid_runb_derived_facts L : forall isels caps s,
  valid_runb s (map (fun cp : Z => (L, cp)) caps) (derived_obs s isels) = true ->
  length isels = length caps /\ Forall (fun isel => incl isel L /\ (NoDup L -> NoDup isel)) isels.
Proof.
  induction isels as [|isel r IH]; intros caps s H.
  - destruct caps; [split; [reflexivity|constructor]|discriminate].
  - destruct caps as [|cp caps]; [discriminate|]. cbn [map derived_obs valid_runb] in H.
    apply andb_true_iff in H. destruct H as [H1 H2]. apply valid_stepb_sound in H1.
    destruct (IH _ _ H2) as [I1 I2]. split; [cbn [length]; rewrite I1; reflexivity|]. constructor; [|exact I2].
    split; [eapply vs_incl; exact H1|]. intros Hnd. eapply vs_nodup; eassumption.
Qed.

Lemma incr_by_one s k : incr_by 1 s k = incr s k.
Proof.
  induction s as [|[k' c] r IH]; [reflexivity|].
  cbn [incr_by incr]. destruct (Nat.eqb k k'); [reflexivity|]. rewrite IH. reflexivity.
Qed.

Lemma fold_incr_by_one sel : forall s, fold_left (incr_by 1) sel s = fold_left incr sel s.
Proof. induction sel as [|a sel IH]; intros s; [reflexivity|]. cbn [fold_left]. rewrite incr_by_one. apply IH. Qed.

Theorem pstep_default s L cap : pstep false 0 1 0 s L cap = step s L cap.
Proof.
  unfold pstep, step. destruct L as [|a L]; [reflexivity|].
  rewrite Z.add_0_r, fold_incr_by_one. reflexivity.
Qed.

Theorem prun_default : forall ops s, prun false 0 1 0 s ops = run s ops.
Proof.
  induction ops as [|[L cap] r IH]; intros s; [reflexivity|].
  cbn [prun run]. rewrite pstep_default. destruct (step s L cap) as [sel s']. rewrite IH. reflexivity.
Qed.

(* each constant matters: with any one of them changed there is a history of three calls on one list that the checker rejects *)
Theorem source_constants_matter :
  let ops := map (fun c => ([0; 1; 2], c)) [2; 2; 2]%Z in
  valid_runb [] ops (prun false 0 1 0 [] ops) = true /\
  valid_runb [] ops (prun true 0 1 0 [] ops) = false /\
  valid_runb [] ops (prun false 1 1 0 [] ops) = false /\
  valid_runb [] ops (prun false (-1) 1 0 [] ops) = false /\
  valid_runb [] ops (prun false 0 2 0 [] ops) = false /\
  valid_runb [] ops (prun false 0 0 0 [] ops) = false /\
  valid_runb [] ops (prun false 0 1 1 [] ops) = false.
Proof. vm_compute. repeat split. Qed.
