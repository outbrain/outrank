(* C08 — the harness interface: the checker run on implementation outputs is sound for the property's clauses; the loop
   model the harness evaluates equals the reference semantics; the tail rule on files shorter than one batch. *)
From Coq Require Import List Arith NArith ZArith Bool Lia Permutation Sorting.Sorted.
From Outrank Require Import Common.ListFacts Common.Median Pipeline.Stream Pipeline.Aggregate Pipeline.AggregateProofs Pipeline.PerBatch Pipeline.C08Model Pipeline.StreamProofs.
Import ListNotations.

Definition close2P (a b : Z) : Prop := (Z.abs (a - b) * 4503599627370496 <= Z.max (Z.abs a) (Z.abs b))%Z.
Definition tables_close (t1 t2 : table) : Prop :=
  Forall2 (fun r1 r2 : row => fst r1 = fst r2 /\ close2P (snd r1) (snd r2))
          (isort row_canon_leb t1) (isort row_canon_leb t2).

Lemma table_close_sound t1 t2 : table_close t1 t2 = true -> tables_close t1 t2.
Proof.
  intros H. apply list_eqb_Forall2 in H. unfold tables_close.
  induction H as [|r1 r2 l1 l2 Hr _ IH]; constructor; [|exact IH]. unfold row_close in Hr.
  apply andb_true_iff in Hr. destruct Hr as [Hk Hc]. split; [apply key_eqb_eq; exact Hk|].
  unfold close2 in Hc. apply Z.leb_le in Hc. exact Hc.
Qed.

Lemma N_list_eqb_eq (l1 l2 : list N) : list_eqb N.eqb l1 l2 = true -> l1 = l2.
Proof. apply list_eqb_eq. intros x y; apply N.eqb_eq. Qed.

Theorem check_sound k ob oi oc of : verdict_ok (C08_check k (ob, oi, oc, of)) = true ->
  let c := k_cfg k in let lines := decode_lines (k_segs k) in
  let ref := reference_batches c lines in let score := score_of (k_rows k) in
  ob = map (map fst) ref
  /\ oi = length (filter (fun l => negb (wf c l)) (selected (cs c) 0 lines))
  /\ length oc = length ref
  /\ (forall j, (j < length ref)%nat -> tables_close (aggregate (concat (map score (firstn (S j) ref)))) (nth j oc []))
  /\ StronglySorted Z.le (map snd of)
  /\ tables_close (aggregate (concat (map score ref))) of
  /\ (forall b r r', In b ref -> In r (score b) -> In r' (score b) -> fst r = fst r' -> snd r = snd r')
  /\ tables_close (aggregate (concat (map batch_once (map score ref)))) of.
Proof.
  unfold verdict_ok, C08_check. cbn [v_batches v_invalid v_nckpt v_ckpts v_sorted v_final v_uniform v_per_batch].
  rewrite !andb_true_iff. intros (((((((Hb & Hi) & Hn) & Hc) & Hs) & Hf) & Hu) & Hp). cbn zeta.
  repeat match goal with |- _ /\ _ => split end.
  - apply (list_eqb_eq _ N_list_eqb_eq). exact Hb.
  - apply Nat.eqb_eq. exact Hi.
  - apply Nat.eqb_eq. exact Hn.
  - intros j Hj. rewrite forallb_forall in Hc. apply table_close_sound. apply Hc.
    apply in_map_iff. exists j. split; [reflexivity|]. apply in_seq. lia.
  - apply sortedb_sound. exact Hs.
  - apply table_close_sound. exact Hf.
  - intros b r r' Hbin. apply batch_uniformb_sound. rewrite forallb_forall in Hu. apply Hu.
    apply in_map_iff. exists b. split; [reflexivity|exact Hbin].
  - apply table_close_sound. rewrite map_map. exact Hp.
Qed.

Theorem model_spec k : (0 < cB (k_cfg k))%nat ->
  let c := k_cfg k in let lines := decode_lines (k_segs k) in
  let ref := reference_batches c lines in let score := score_of (k_rows k) in
  C08_model k =
  (map (map fst) ref,
   length (filter (fun l => negb (wf c l)) (selected (cs c) 0 lines)),
   map (fun j => aggregate (concat (map score (firstn j ref)))) (seq 1 (length ref)),
   final_sort (aggregate (concat (map score ref)))).
Proof.
  intros HB. cbn zeta. unfold C08_model.
  pose proof (batches_spec (score_of (k_rows k)) aggregate (k_cfg k) HB (decode_lines (k_segs k))) as Hb.
  pose proof (invalid_spec (score_of (k_rows k)) aggregate (k_cfg k) HB (decode_lines (k_segs k))) as Hi.
  destruct (stream_inv (score_of (k_rows k)) aggregate (k_cfg k) (decode_lines (k_segs k))) as [Ha Hc].
  unfold batches in Hb. unfold invalid_count in Hi. rewrite Ha, Hc, Hi. unfold ckpts_of, rows_of. rewrite Hb. reflexivity.
Qed.

(* non-vacuity: the tail rule is strict, and a batch is cut exactly when the B-th accepted row arrives *)
(* stated over the run-length description, so that a case of a thousand lines is decided without evaluating it *)
Lemma tail_rule {row table : Type} (score : list line -> list row) (agg : list row -> table) B k t n :
  (N.to_nat n < B)%nat ->
  map (@length line) (batches score agg (mkcfg B 1 k t) (decode_lines [(n, k)])) = if (t <? N.to_nat n)%nat then [N.to_nat n] else [].
Proof.
  intros Hn. set (lines := decode_lines [(n, k)]).
  assert (Hl : length lines = N.to_nat n).
  { transitivity (length (map snd lines)); [symmetry; apply map_length|]. unfold lines. rewrite decode_lines_single. apply repeat_length. }
  assert (Hwf : Forall (fun l => wf (mkcfg B 1 k t) l = true) lines).
  { apply (Forall_map snd (fun f => Nat.eqb f k = true)). unfold lines. rewrite decode_lines_single.
    apply Forall_repeat, Nat.eqb_refl. }
  assert (Hlen : (length lines < B)%nat) by (rewrite Hl; exact Hn).
  assert (HB : (0 < B)%nat) by lia.
  rewrite (batches_short_file score agg (mkcfg B 1 k t) HB lines eq_refl Hwf Hlen). cbn [ctail]. rewrite Hl.
  destruct (t <? N.to_nat n)%nat; cbn [map]; [rewrite Hl|]; reflexivity.
Qed.

Example tail_1024_dropped :
  batches (fun _ => @nil row) aggregate (mkcfg 2000 1 3 tail_min) (decode_lines [(1024%N, 3%nat)]) = [].
Proof.
  apply map_eq_nil with (f := @length line). rewrite tail_rule; [reflexivity|]. apply Nat.ltb_lt. reflexivity.
Qed.
Example tail_1025_used :
  map (@length line) (batches (fun _ => @nil row) aggregate (mkcfg 2000 1 3 tail_min) (decode_lines [(1025%N, 3%nat)])) = [1025%nat].
Proof. rewrite tail_rule; [reflexivity|]. apply Nat.ltb_lt. reflexivity. Qed.
Example small_run :
  let c := mkcfg 3 2 2 1 in
  let lines := decode_lines [(5%N, 2%nat); (1%N, 1%nat); (7%N, 2%nat); (2%N, 3%nat); (6%N, 2%nat)] in
  map (map fst) (batches (fun _ => @nil row) aggregate c lines) = [[2; 4; 8]; [10; 12; 16]; [18; 20]]%N
  /\ invalid_count (fun _ => @nil row) aggregate c lines = 2%nat.
Proof. vm_compute. split; reflexivity. Qed.
