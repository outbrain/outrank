(* C08 — the streaming loop is a fold of [push] over the selected well-formed lines ([run_fold]); that fold builds the
   unique chunking of those lines, so the batches are the reference batches; rows and checkpoints follow the batches
   by an invariant of [flush] ([acc_inv]). *)
From Coq Require Import List Arith NArith Lia Bool.
From Outrank Require Import Common.ListFacts Pipeline.Stream.
Import ListNotations.

(* chunks: the reference chunking is the unique decomposition into full chunks and a short remainder *)

Definition is_chunking {A} (B : nat) (l : list A) (full : list (list A)) (rest : list A) : Prop :=
  concat full ++ rest = l /\ Forall (fun b => length b = B) full /\ length rest < B.

Lemma chunks_fuel_spec {A} B : 0 < B -> forall fuel (l : list A), length l <= fuel ->
  is_chunking B l (fst (chunks_fuel fuel B l)) (snd (chunks_fuel fuel B l)).
Proof.
  intros HB. induction fuel as [|f IH]; intros l Hl.
  - destruct l; [|cbn in Hl; lia]. cbn. repeat split; auto.
  - cbn [chunks_fuel]. destruct (B <=? length l) eqn:E.
    + apply Nat.leb_le in E. cbn [fst snd].
      destruct (IH (skipn B l)) as (H1 & H2 & H3); [rewrite skipn_length; lia|].
      repeat split.
      * cbn [concat]. rewrite <- app_assoc, H1. apply firstn_skipn.
      * constructor; [rewrite firstn_length; lia|exact H2].
      * exact H3.
    + apply Nat.leb_gt in E. cbn. repeat split; auto.
Qed.

Theorem chunks_spec {A} B (l : list A) : 0 < B -> is_chunking B l (fst (chunks B l)) (snd (chunks B l)).
Proof. intros HB. apply chunks_fuel_spec; auto. Qed.

Lemma chunks_short {A} B (l : list A) : length l < B -> chunks B l = ([], l).
Proof.
  intros H. unfold chunks. destruct (length l) as [|f] eqn:E; [reflexivity|]. cbn [chunks_fuel].
  rewrite E, (proj2 (Nat.leb_gt _ _) H). reflexivity.
Qed.

Theorem chunking_unique {A} B (l : list A) f1 r1 f2 r2 :
  is_chunking B l f1 r1 -> is_chunking B l f2 r2 -> f1 = f2 /\ r1 = r2.
Proof.
  intros (E1 & F1 & L1) (E2 & F2 & L2). rewrite <- E1 in E2. clear E1 l. revert f2 E2 F2.
  induction f1 as [|b1 f1 IH]; intros f2 E2 F2.
  - destruct f2 as [|b2 f2]; [cbn in E2; auto|].
    exfalso. pose proof (Forall_inv F2) as Hb2. cbn beta in Hb2. cbn in E2. rewrite <- E2 in L1.
    rewrite <- app_assoc, app_length in L1. lia.
  - pose proof (Forall_inv F1) as Hb1. pose proof (Forall_inv_tail F1) as F1'. cbn beta in Hb1.
    destruct f2 as [|b2 f2].
    + exfalso. cbn in E2. rewrite E2 in L2. rewrite <- app_assoc, app_length in L2. lia.
    + pose proof (Forall_inv F2) as Hb2. pose proof (Forall_inv_tail F2) as F2'. cbn beta in Hb2.
      cbn [concat] in E2. rewrite <- !app_assoc in E2.
      destruct (app_eq_len b2 b1 _ _ (eq_trans Hb2 (eq_sym Hb1)) E2) as [-> E3].
      destruct (IH F1' f2 E3 F2') as [-> ->]. auto.
Qed.

(* the positional reading of [selected] *)

Theorem selected_spec s lines : forall k0,
  selected s k0 lines = map snd (filter (fun p => N.eqb (N.modulo (fst p) s) 0) (number (N.succ k0) lines)).
Proof.
  induction lines as [|l r IH]; intros k0; [reflexivity|].
  cbn [selected number filter fst]. destruct (N.eqb (N.modulo (N.succ k0) s) 0); cbn [map snd]; rewrite IH; reflexivity.
Qed.

Lemma number_fst k lines : map fst (number k lines) = map (fun i => (k + N.of_nat i)%N) (seq 0 (length lines)).
Proof.
  revert k. induction lines as [|l r IH]; intros k; [reflexivity|].
  cbn [number map length seq fst]. f_equal; [lia|]. rewrite IH, <- seq_shift, map_map. apply map_ext. intros; lia.
Qed.
Lemma number_snd k lines : map snd (number k lines) = lines.
Proof. revert k. induction lines as [|l r IH]; intros k; cbn; [reflexivity|]. rewrite IH. reflexivity. Qed.

Lemma selected_all lines : forall k0, selected 1 k0 lines = lines.
Proof.
  induction lines as [|l r IH]; intros k0; [reflexivity|]. cbn [selected]. rewrite N.mod_1_r, IH. reflexivity.
Qed.

(* ---------------------------------------------------------------------------------------------------------- *)
(* [decode_lines]: the harness's run-length description of a file *)

Lemma number_from_snd fs : forall k, map snd (number_from k fs) = fs.
Proof. induction fs as [|f r IH]; intros k; cbn [number_from map snd]; [reflexivity|]. rewrite IH. reflexivity. Qed.

Lemma number_from_length fs : forall k, length (number_from k fs) = length fs.
Proof. induction fs as [|f r IH]; intros k; [reflexivity|]. cbn [number_from length]. rewrite IH. reflexivity. Qed.

Lemma expand_cons n k r : expand ((n, k) :: r) = repeat k (N.to_nat n) ++ expand r.
Proof.
  cbn [expand]. rewrite N2Nat.inj_iter. induction (N.to_nat n) as [|m IH]; [reflexivity|].
  cbn [Nat.iter repeat app]. rewrite <- IH. reflexivity.
Qed.

Lemma decode_lines_single n k : map snd (decode_lines [(n, k)]) = repeat k (N.to_nat n).
Proof. unfold decode_lines. rewrite number_from_snd, expand_cons. apply app_nil_r. Qed.

Section Loop.
  Context {row table : Type}.
  Variable score : list line -> list row.
  Variable agg : list row -> table.
  Variable c : cfg.

  Notation sst := (@sst row table).
  Notation sstep := (sstep score agg c).
  Notation run := (run score agg c).
  Notation flush := (flush score agg).

  (* what the accumulated rows and the checkpoints are, in terms of the batches emitted so far *)
  Definition rows_of (bs : list (list line)) : list row := concat (map score bs).
  Definition ckpts_of (bs : list (list line)) : list table :=
    map (fun k => agg (rows_of (firstn k bs))) (seq 1 (length bs)).
  Definition acc_inv (st : sst) : Prop := acc st = rows_of (emitted st) /\ ckpts st = ckpts_of (emitted st).

  Lemma rows_of_app bs b : rows_of (bs ++ [b]) = rows_of bs ++ score b.
  Proof. unfold rows_of. rewrite map_app, concat_app. cbn. rewrite app_nil_r. reflexivity. Qed.

  Lemma ckpts_of_app bs b : ckpts_of (bs ++ [b]) = ckpts_of bs ++ [agg (rows_of (bs ++ [b]))].
  Proof.
    unfold ckpts_of. rewrite app_length. cbn [length]. rewrite Nat.add_1_r, seq_S, map_app. cbn [map]. f_equal.
    - apply map_ext_in. intros k Hk. apply in_seq in Hk. rewrite firstn_app.
      replace (k - length bs) with 0 by lia. cbn. rewrite app_nil_r. reflexivity.
    - cbn [plus]. rewrite firstn_all2; [reflexivity|]. rewrite app_length. cbn. lia.
  Qed.

  Lemma flush_inv st b : acc_inv st -> acc_inv (flush st b).
  Proof.
    intros [Ha Hc]. unfold acc_inv, flush. cbn [acc ckpts emitted]. rewrite rows_of_app, ckpts_of_app, rows_of_app, Ha, Hc. auto.
  Qed.

  Lemma sstep_inv st l : acc_inv st -> acc_inv (sstep st l).
  Proof.
    intros H. unfold Stream.sstep.
    destruct (negb _); [exact H|].
    destruct (wf c l); (destruct (cB c <=? _); [apply flush_inv|]; exact H).
  Qed.

  Lemma run_inv lines : forall st, acc_inv st -> acc_inv (run st lines).
  Proof. induction lines as [|l r IH]; intros st H; [exact H|]. cbn. apply IH, sstep_inv, H. Qed.

  Notation stream := (stream score agg c).

  Lemma stream_inv lines : acc_inv (stream lines).
  Proof.
    unfold Stream.stream, finish. assert (H : acc_inv (run init lines)) by (apply run_inv; split; reflexivity).
    destruct (ctail c <? _); [apply flush_inv|]; exact H.
  Qed.

  Theorem all_rows_spec lines : all_rows score agg c lines = concat (map score (batches score agg c lines)).
  Proof. destruct (stream_inv lines) as [Ha _]. exact Ha. Qed.

  Theorem checkpoints_spec lines :
    length (checkpoints score agg c lines) = length (batches score agg c lines) /\
    forall k, k < length (batches score agg c lines) ->
      nth_error (checkpoints score agg c lines) k =
      Some (agg (concat (map score (firstn (S k) (batches score agg c lines))))).
  Proof.
    destruct (stream_inv lines) as [_ Hc]. unfold checkpoints, batches. rewrite Hc. unfold ckpts_of. split.
    - rewrite map_length, seq_length. reflexivity.
    - intros k Hk. (* [ckpts_of] maps over seq 1 n, whose position k holds S k *)
      apply (map_nth_error (fun j => agg (rows_of (firstn j (emitted (stream lines))))) k _ (d := S k)).
      rewrite (nth_error_nth' _ 0) by (rewrite seq_length; exact Hk). rewrite seq_nth by exact Hk. reflexivity.
  Qed.

  Hypothesis HB : 0 < cB c.

  (* one iteration, read on the fields the observables depend on: a selected well-formed line is pushed, a selected
     ill-formed one is counted, anything else only advances the counter *)
  Lemma sstep_proj st l : length (buf st) < cB c ->
    let sel := N.eqb (N.modulo (N.succ (counter st)) (cs c)) 0 in
    (emitted (sstep st l), buf (sstep st l))
      = (if sel && wf c l then push (cB c) (emitted st, buf st) l else (emitted st, buf st))
    /\ counter (sstep st l) = N.succ (counter st)
    /\ invalid (sstep st l) = invalid st + (if sel && negb (wf c l) then 1 else 0)
    /\ length (buf (sstep st l)) < cB c.
  Proof.
    intros Hb. unfold Stream.sstep, push. cbn zeta.
    destruct (N.eqb (N.modulo (N.succ (counter st)) (cs c)) 0); cbn [negb andb]; [|cbn; repeat split; lia].
    destruct (wf c l); cbn [negb andb buf fst snd].
    - destruct (cB c <=? length (buf st ++ [l])) eqn:E; cbn; repeat split; try lia.
      apply Nat.leb_gt in E. exact E.
    - rewrite (proj2 (Nat.leb_gt _ _) Hb). cbn. repeat split; lia.
  Qed.

  (* the loop is the fold of [push] over the selected well-formed lines; it counts the lines and the selected
     ill-formed ones *)
  Theorem run_fold lines : forall st, length (buf st) < cB c ->
    let st' := run st lines in
    (emitted st', buf st') = fold_left (push (cB c)) (good c (counter st) lines) (emitted st, buf st)
    /\ counter st' = (counter st + N.of_nat (length lines))%N
    /\ invalid st' = invalid st + length (filter (fun l => negb (wf c l)) (selected (cs c) (counter st) lines))
    /\ length (buf st') < cB c.
  Proof.
    induction lines as [|l r IH]; intros st Hb; cbn zeta.
    - cbn. repeat split; lia.
    - destruct (sstep_proj st l Hb) as (Heb & Hc & Hi & Hb'). cbn zeta in Heb, Hi.
      change (Stream.run score agg c st (l :: r)) with (run (sstep st l) r).
      destruct (IH (sstep st l) Hb') as (H1 & H2 & H3 & H4). rewrite Heb, Hc in H1. rewrite Hc in H2, H3. rewrite Hi in H3.
      unfold good. cbn [selected].
      destruct (N.eqb (N.modulo (N.succ (counter st)) (cs c)) 0); [destruct (wf c l) eqn:W|];
        cbn [andb negb] in H1, H3; cbn [filter]; rewrite ?W; cbn [negb fold_left length].
      (* H1 is the fold clause with the head line pushed or not, H4 the buffer bound; the counter and the invalid count
         are H2 and H3 up to arithmetic *)
      all: split; [exact H1|split; [|split; [|exact H4]]]; lia.
  Qed.

  Theorem run_spec lines : forall st, length (buf st) < cB c ->
    let st' := run st lines in
    (emitted st', buf st') = fold_left (push (cB c)) (good c (counter st) lines) (emitted st, buf st)
    /\ counter st' = (counter st + N.of_nat (length lines))%N
    /\ invalid st' = invalid st + (length (selected (cs c) (counter st) lines) - length (good c (counter st) lines))
    /\ length (buf st') < cB c.
  Proof.
    intros st Hb. destruct (run_fold lines st Hb) as (H1 & H2 & H3 & H4). cbn zeta in *. repeat split; try assumption.
    rewrite H3. unfold good. pose proof (filter_negb_length (wf c) (selected (cs c) (counter st) lines)). lia.
  Qed.

  (* that fold really is "consecutive chunks of size B, remainder < B, order preserved" *)
  Theorem push_chunks g : forall em bf, length bf < cB c ->
    let r := fold_left (push (cB c)) g (em, bf) in
    concat (fst r) ++ snd r = concat em ++ bf ++ g
    /\ (Forall (fun b => length b = cB c) em -> Forall (fun b => length b = cB c) (fst r))
    /\ length (snd r) < cB c.
  Proof.
    induction g as [|x g IH]; intros em bf Hb; cbn zeta.
    - cbn. rewrite app_nil_r. auto.
    - cbn [fold_left].
      destruct (cB c <=? length (bf ++ [x])) eqn:E.
      + assert (Ep : push (cB c) (em, bf) x = (em ++ [bf ++ [x]], [])) by (unfold push; cbn [fst snd]; rewrite E; reflexivity).
        rewrite Ep. apply Nat.leb_le in E. rewrite app_length in E. cbn in E.
        destruct (IH (em ++ [bf ++ [x]]) []) as (H1 & H2 & H3); [cbn; lia|].
        repeat split; [|intros Hall; apply H2; apply Forall_app; split; [exact Hall|constructor; [rewrite app_length; cbn; lia|constructor]]|exact H3].
        rewrite H1, concat_app. cbn. rewrite !app_nil_r, <- !app_assoc. reflexivity.
      + assert (Ep : push (cB c) (em, bf) x = (em, bf ++ [x])) by (unfold push; cbn [fst snd]; rewrite E; reflexivity).
        rewrite Ep. apply Nat.leb_gt in E.
        destruct (IH em (bf ++ [x])) as (H1 & H2 & H3); [exact E|].
        repeat split; [|exact H2|exact H3]. rewrite H1, <- !app_assoc. reflexivity.
  Qed.

  (* state after the loop, before the tail rule *)
  Lemma loop_chunks lines :
    emitted (run (init) lines) = fst (chunks (cB c) (good c 0 lines)) /\
    buf (run (init) lines) = snd (chunks (cB c) (good c 0 lines)).
  Proof.
    destruct (run_spec lines (@init row table)) as (H1 & _ & _ & H4); [cbn; exact HB|].
    cbn [counter emitted buf init] in H1.
    destruct (push_chunks (good c 0 lines) [] []) as (P1 & P2 & P3); [cbn; exact HB|].
    rewrite <- H1 in P1, P2, P3. cbn [fst snd concat app] in P1, P2, P3.
    (* what the loop holds is a chunking of the good lines, and so is [chunks]: they are the same *)
    assert (W : is_chunking (cB c) (good c 0 lines) (emitted (run init lines)) (buf (run init lines))).
    { split; [exact P1|split; [exact (P2 (Forall_nil _))|exact P3]]. }
    destruct (chunking_unique (cB c) (good c 0 lines) _ _ _ _ W (chunks_spec (cB c) (good c 0 lines) HB)) as [E1 E2].
    split; assumption.
  Qed.

  Theorem batches_spec lines : batches score agg c lines = reference_batches c lines.
  Proof.
    unfold batches, Stream.stream, reference_batches, finish.
    destruct (loop_chunks lines) as [E1 E2].
    destruct (run_spec lines (@init row table)) as (_ & _ & _ & H4); [cbn; exact HB|].
    cbn zeta in H4. rewrite E2. destruct (ctail c <? _).
    - cbn [flush emitted]. rewrite E1. rewrite firstn_all2; [reflexivity|]. rewrite <- E2. lia.
    - rewrite E1, app_nil_r. reflexivity.
  Qed.

  Theorem batches_short_file lines : cs c = 1%N -> Forall (fun l => wf c l = true) lines -> length lines < cB c ->
    batches score agg c lines = if ctail c <? length lines then [lines] else [].
  Proof.
    intros Hs Hwf Hlen. rewrite batches_spec. unfold reference_batches, good.
    rewrite Hs, selected_all, (filter_all _ _ (proj1 (Forall_forall _ _) Hwf)), (chunks_short _ _ Hlen). reflexivity.
  Qed.

  Theorem invalid_spec lines :
    invalid_count score agg c lines = length (filter (fun l => negb (wf c l)) (selected (cs c) 0 lines)).
  Proof.
    unfold invalid_count, Stream.stream, finish.
    destruct (run_fold lines (@init row table)) as (_ & _ & E & _); [cbn; exact HB|].
    cbn zeta in E. cbn [invalid counter init] in E.
    destruct (ctail c <? _); [cbn [flush invalid]|]; exact E.
  Qed.
End Loop.
