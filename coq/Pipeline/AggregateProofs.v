(* C08/C09 — the aggregate is one row per ordered pair with the median of its scores, a function of the multiset of rows
   (keys sorted by an antisymmetric order, the median invariant under permutation); the final sort and the boolean
   checkers for written tables. *)
From Coq Require Import List ZArith NArith Bool Lia Permutation Sorting.Sorted.
From Outrank Require Import Common.ListFacts Common.Sort Common.Median Pipeline.Aggregate.
Import ListNotations.

(* [Aggregate.isort] is the insertion sort of Common/Sort.v (convertible) *)
Section ISortProofs.
  Context {A : Type} (leb : A -> A -> bool).

  Lemma isort_perm l : Permutation (isort leb l) l.
  Proof. exact (Sort.isort_perm leb l). Qed.

  Lemma isort_In x l : In x (isort leb l) <-> In x l.
  Proof. exact (Sort.isort_In leb x l). Qed.

  Hypothesis total : forall x y, leb x y = true \/ leb y x = true.
  Hypothesis trans : forall x y z, leb x y = true -> leb y z = true -> leb x z = true.

  Lemma isort_sorted l : StronglySorted (fun x y => leb x y = true) (isort leb l).
  Proof. exact (Sort.isort_sorted leb total trans l). Qed.

  Hypothesis antisym : forall x y, leb x y = true -> leb y x = true -> x = y.

  Theorem isort_perm_invariant l l' : Permutation l l' -> isort leb l = isort leb l'.
  Proof. intros Hp. apply (Sort.isort_perm_invariant leb total trans l l'); [|exact Hp]. intros x y _ _. apply antisym. Qed.
End ISortProofs.

Lemma key_eqb_eq k1 k2 : key_eqb k1 k2 = true <-> k1 = k2.
Proof. exact (prod_eqb_eq N.eqb N.eqb N.eqb_eq N.eqb_eq k1 k2). Qed.
Lemma key_eqb_refl k : key_eqb k k = true.
Proof. apply key_eqb_eq. reflexivity. Qed.
Lemma key_eqb_sym k1 k2 : key_eqb k1 k2 = key_eqb k2 k1.
Proof. unfold key_eqb. rewrite (N.eqb_sym (fst k1)), (N.eqb_sym (snd k1)). reflexivity. Qed.

Lemma key_leb_le k1 k2 :
  key_leb k1 k2 = true <-> (fst k1 < fst k2 \/ (fst k1 = fst k2 /\ snd k1 <= snd k2))%N.
Proof. unfold key_leb. rewrite orb_true_iff, andb_true_iff, N.ltb_lt, N.eqb_eq, N.leb_le. reflexivity. Qed.

Lemma key_leb_total k1 k2 : key_leb k1 k2 = true \/ key_leb k2 k1 = true.
Proof. rewrite !key_leb_le. lia. Qed.
Lemma key_leb_trans k1 k2 k3 : key_leb k1 k2 = true -> key_leb k2 k3 = true -> key_leb k1 k3 = true.
Proof. rewrite !key_leb_le. lia. Qed.
Lemma key_leb_antisym k1 k2 : key_leb k1 k2 = true -> key_leb k2 k1 = true -> k1 = k2.
Proof. rewrite !key_leb_le. destruct k1, k2. cbn [fst snd]. intros H1 H2. f_equal; lia. Qed.

Lemma scores_of_perm k rows rows' : Permutation rows rows' -> Permutation (scores_of k rows) (scores_of k rows').
Proof. intros Hp. unfold scores_of. apply Permutation_map, Permutation_filter, Hp. Qed.

Lemma keys_perm rows rows' : Permutation rows rows' -> keys rows = keys rows'.
Proof.
  intros Hp. unfold keys.
  apply (isort_perm_invariant key_leb key_leb_total key_leb_trans key_leb_antisym).
  apply nodup_perm, Permutation_map, Hp.
Qed.

Theorem aggregate_perm rows rows' : Permutation rows rows' -> aggregate rows = aggregate rows'.
Proof.
  intros Hp. unfold aggregate. rewrite (keys_perm _ _ Hp). apply map_ext. intros k.
  rewrite (median2_perm _ _ (scores_of_perm k _ _ Hp)). reflexivity.
Qed.

Corollary final_table_perm rows rows' : Permutation rows rows' -> final_table rows = final_table rows'.
Proof. intros Hp. unfold final_table. rewrite (aggregate_perm _ _ Hp). reflexivity. Qed.

(* one row per ordered pair, holding the median of that pair's scores *)

Lemma keys_In rows k : In k (keys rows) <-> In k (map fst rows).
Proof.
  unfold keys. etransitivity; [apply (isort_In key_leb)|apply nodup_In].
Qed.
Lemma keys_NoDup rows : NoDup (keys rows).
Proof.
  unfold keys. eapply Permutation_NoDup; [symmetry; apply isort_perm|]. apply NoDup_nodup.
Qed.
Lemma keys_sorted rows : StronglySorted (fun k1 k2 => key_leb k1 k2 = true) (keys rows).
Proof. unfold keys. apply isort_sorted; [apply key_leb_total|apply key_leb_trans]. Qed.

Lemma aggregate_keys rows : map fst (aggregate rows) = keys rows.
Proof. unfold aggregate. rewrite map_map. cbn. apply map_id. Qed.

Lemma aggregate_NoDup rows : NoDup (map fst (aggregate rows)).
Proof. rewrite aggregate_keys. exact (keys_NoDup rows). Qed.

Lemma find_key (g : key -> Z) ks k : NoDup ks -> In k ks ->
  find (fun r : row => key_eqb (fst r) k) (map (fun k => (k, g k)) ks) = Some (k, g k).
Proof.
  induction ks as [|k' ks IH]; intros Hnd Hin; [destruct Hin|].
  cbn [map find fst]. destruct (key_eqb k' k) eqn:E.
  - apply key_eqb_eq in E. subst. reflexivity.
  - destruct Hin as [->|Hin]; [rewrite key_eqb_refl in E; discriminate|].
    apply IH; [inversion Hnd; assumption|exact Hin].
Qed.
Lemma find_key_none (g : key -> Z) ks k : ~ In k ks ->
  find (fun r : row => key_eqb (fst r) k) (map (fun k => (k, g k)) ks) = None.
Proof.
  induction ks as [|k' ks IH]; intros Hin; [reflexivity|].
  cbn [map find fst]. destruct (key_eqb k' k) eqn:E.
  - apply key_eqb_eq in E. subst. exfalso. apply Hin. now left.
  - apply IH. intros H. apply Hin. now right.
Qed.

Theorem aggregate_lookup rows k :
  lookup k (aggregate rows) = if in_dec key_eq_dec k (map fst rows) then Some (median2 (scores_of k rows)) else None.
Proof.
  unfold lookup, aggregate. destruct (in_dec key_eq_dec k (map fst rows)) as [Hin|Hnin].
  - rewrite (find_key (fun k => median2 (scores_of k rows))); [reflexivity|apply keys_NoDup|apply keys_In; exact Hin].
  - rewrite find_key_none; [reflexivity|]. intros H. apply Hnin, keys_In, H.
Qed.

Theorem aggregate_rows rows r :
  In r (aggregate rows) <-> In (fst r) (map fst rows) /\ snd r = median2 (scores_of (fst r) rows).
Proof.
  unfold aggregate. split.
  - intros H. apply in_map_iff in H. destruct H as (k & <- & Hk). cbn [fst snd].
    split; [apply keys_In; exact Hk|reflexivity].
  - intros [Hk Hs]. apply in_map_iff. exists (fst r).
    split; [destruct r; cbn [fst snd] in *; subst; reflexivity|apply keys_In; exact Hk].
Qed.

(* the scores of a pair are exactly the scores of the rows carrying that pair (the names travel inside the row) *)
Lemma scores_of_In k rows z : In z (scores_of k rows) <-> In (k, z) rows.
Proof.
  unfold scores_of. rewrite in_map_iff. split.
  - intros ([k' z'] & <- & H). apply filter_In in H. destruct H as [H E]. cbn in E. apply key_eqb_eq in E. subst. exact H.
  - intros H. exists (k, z). split; [reflexivity|]. apply filter_In. split; [exact H|cbn; apply key_eqb_refl].
Qed.
Lemma scores_of_nonempty k b : In k (keys b) <-> scores_of k b <> [].
Proof.
  split.
  - intros Hi Es. apply keys_In in Hi. apply in_map_iff in Hi. destruct Hi as ([k' z] & Ek & Hr). cbn in Ek. subst k'.
    assert (Hz : In z (scores_of k b)) by (apply scores_of_In; exact Hr). rewrite Es in Hz. destruct Hz.
  - intros Hne. destruct (scores_of k b) as [|z l] eqn:Es; [contradiction|].
    apply keys_In. assert (Hz : In z (scores_of k b)) by (rewrite Es; now left).
    apply scores_of_In in Hz. apply in_map_iff. exists (k, z). split; [reflexivity|exact Hz].
Qed.

Lemma scores_of_app k r1 r2 : scores_of k (r1 ++ r2) = scores_of k r1 ++ scores_of k r2.
Proof. unfold scores_of. rewrite filter_app, map_app. reflexivity. Qed.
Lemma scores_of_cons k k0 z t :
  scores_of k ((k0, z) :: t) = if key_eqb k0 k then z :: scores_of k t else scores_of k t.
Proof. unfold scores_of. cbn [filter fst]. destruct (key_eqb k0 k); reflexivity. Qed.
Lemma scores_of_length k rows : length (scores_of k rows) = count_occ key_eq_dec (map fst rows) k.
Proof.
  induction rows as [|[k' z] rows IH]; [reflexivity|]. rewrite scores_of_cons. cbn [map fst count_occ].
  destruct (key_eq_dec k' k) as [->|Hne].
  - rewrite key_eqb_refl. cbn [length]. rewrite IH. reflexivity.
  - destruct (key_eqb k' k) eqn:E; [apply key_eqb_eq in E; contradiction|exact IH].
Qed.

Lemma row_leb_total r1 r2 : row_leb r1 r2 = true \/ row_leb r2 r1 = true.
Proof. unfold row_leb. destruct (Z.leb_spec (snd r1) (snd r2)), (Z.leb_spec (snd r2) (snd r1)); auto; lia. Qed.
Lemma row_leb_trans r1 r2 r3 : row_leb r1 r2 = true -> row_leb r2 r3 = true -> row_leb r1 r3 = true.
Proof. unfold row_leb. rewrite !Z.leb_le. lia. Qed.

Theorem final_sort_perm t : Permutation (final_sort t) t.
Proof. apply isort_perm. Qed.

Lemma in_final_sort r t : In r (final_sort t) <-> In r t.
Proof. apply (isort_In row_leb). Qed.

Theorem final_sort_sorted t : StronglySorted (fun r1 r2 : row => (snd r1 <= snd r2)%Z) (final_sort t).
Proof.
  eapply StronglySorted_weaken; [|apply (isort_sorted row_leb row_leb_total row_leb_trans)].
  intros x y H. apply Z.leb_le. exact H.
Qed.

Lemma list_eqb_Forall2 {A} (eqb : A -> A -> bool) l1 : forall l2,
  list_eqb eqb l1 l2 = true -> Forall2 (fun x y => eqb x y = true) l1 l2.
Proof.
  induction l1 as [|x l1 IH]; intros [|y l2] H; cbn in H; try discriminate; constructor.
  - apply andb_true_iff in H. apply H.
  - apply IH. apply andb_true_iff in H. apply H.
Qed.
Lemma list_eqb_eq {A} (eqb : A -> A -> bool) (Heq : forall x y, eqb x y = true -> x = y) l1 l2 :
  list_eqb eqb l1 l2 = true -> l1 = l2.
Proof.
  intros H. apply list_eqb_Forall2 in H. induction H as [|x y l1 l2 Hxy _ IH]; [reflexivity|].
  rewrite (Heq _ _ Hxy), IH. reflexivity.
Qed.
Lemma row_eqb_eq r1 r2 : row_eqb r1 r2 = true -> r1 = r2.
Proof. exact (proj1 (prod_eqb_eq key_eqb Z.eqb key_eqb_eq Z.eqb_eq r1 r2)). Qed.

Lemma sortedb_sound l : sortedb l = true -> StronglySorted Z.le l.
Proof.
  intros H. apply Sorted_StronglySorted; [intros x y z; apply Z.le_trans|].
  induction l as [|x [|y r] IH]; [constructor|repeat constructor|].
  cbn [sortedb] in H. apply andb_true_iff in H. destruct H as [Hxy Hr].
  constructor; [apply IH; exact Hr|constructor; apply Z.leb_le; exact Hxy].
Qed.

Lemma isort_eqb_perm {A} (eqb leb : A -> A -> bool) (Heq : forall x y, eqb x y = true -> x = y) a b :
  list_eqb eqb (isort leb a) (isort leb b) = true -> Permutation a b.
Proof. intros H. apply (list_eqb_eq _ Heq) in H. rewrite <- (isort_perm leb a), H. apply isort_perm. Qed.

Theorem final_okb_sound t out : final_okb t out = true ->
  Permutation out t /\ StronglySorted Z.le (map snd out).
Proof.
  unfold final_okb. rewrite andb_true_iff. intros [Hs He]. split; [|apply sortedb_sound; exact Hs].
  exact (isort_eqb_perm _ _ row_eqb_eq _ _ He).
Qed.

(* the median as a rank statement: at most half of the scores lie strictly below it, at most half strictly above *)

Definition below2 (m2 x : Z) : bool := 2 * x <? m2.     (* x < m2/2 *)
Definition above2 (m2 x : Z) : bool := m2 <? 2 * x.     (* x > m2/2 *)

Theorem median2_rank l : l <> [] ->
  (2 * length (filter (below2 (median2 l)) l) <= length l)%nat /\
  (2 * length (filter (above2 (median2 l)) l) <= length l)%nat.
Proof.
  intros Hne. rewrite (median2_alt l Hne). set (s := sort l). set (n := length l).
  assert (Hp : Permutation s l) by apply sort_perm. assert (Hs : StronglySorted Z.le s) by apply sort_sorted.
  assert (Hl : length s = n) by apply (Permutation_length Hp).
  assert (Hn : (0 < n)%nat) by (unfold n; destruct l; [contradiction|cbn [length]; lia]).
  set (lo := nth ((n - 1) / 2) s 0). set (hi := nth (n / 2) s 0).
  (* n - 1 and n divided by 2: the two middle positions are equal or adjacent (for lo <= hi), and the bounds n/2 and
     n - (n-1)/2 - 1 on the two counts below are at most half of n *)
  pose proof (Nat.div_mod (n - 1) 2 ltac:(lia)) as Elo. pose proof (Nat.mod_upper_bound (n - 1) 2 ltac:(lia)) as Rlo.
  pose proof (Nat.div_mod n 2 ltac:(lia)) as Ehi. pose proof (Nat.mod_upper_bound n 2 ltac:(lia)) as Rhi.
  assert (Hlh : lo <= hi).
  { unfold lo, hi. destruct (Nat.eq_dec ((n - 1) / 2) (n / 2)) as [->|Hne']; [lia|].
    replace (n / 2)%nat with (S ((n - 1) / 2)) by lia. apply sorted_adjacent; [lia|exact Hs]. }
  rewrite <- !(filter_length_perm _ _ _ Hp). split.
  - assert (length (filter (below2 (lo + hi)) s) <= n / 2)%nat; [|lia].
    apply count_low; [lia|exact Hs|]. fold hi. intros x Hx. apply Z.ltb_ge. lia.
  - assert (length (filter (above2 (lo + hi)) s) + S ((n - 1) / 2) <= length s)%nat; [|lia].
    apply count_high; [lia|exact Hs|]. fold lo. intros x Hx. apply Z.ltb_ge. lia.
Qed.
