(* C06 — the candidate list read as a set of unordered pairs ([uin]) and as a list holding each pair once ([once]);
   a batch is any sub-multiset of it of the slice's length ([selected_ok]), its rows determined by two view lemmas on
   [build_rows]; the boolean checkers decide exactly these clauses. *)
From Coq Require Import List Arith ZArith NArith Bool Lia Permutation Sorted ZifyBool.
From Outrank Require Import Common.ListFacts Common.Sort Pipeline.Sampler Pipeline.SamplerProofs Pipeline.Combos.
Import ListNotations.

Lemma str_eqb_eq a : forall b, str_eqb a b = true <-> a = b.
Proof. exact (eqb_list_eq N.eqb N.eqb_eq a). Qed.

Lemma str_eqb_refl a : str_eqb a a = true.
Proof. apply str_eqb_eq. reflexivity. Qed.

Lemma str_eqb_neq a b : str_eqb a b = false <-> a <> b.
Proof. rewrite <- str_eqb_eq. symmetry. apply not_true_iff_false. Qed.

Lemma str_eqb_sym a b : str_eqb a b = str_eqb b a.
Proof.
  destruct (str_eqb a b) eqn:E.
  - apply str_eqb_eq in E. subst. symmetry. apply str_eqb_refl.
  - symmetry. apply str_eqb_neq. apply str_eqb_neq in E. congruence.
Qed.

Lemma memb_In x l : memb x l = true <-> In x l.
Proof. exact (existsb_eqb_In str_eqb str_eqb_eq x l). Qed.

Lemma memb_false x l : memb x l = false <-> ~ In x l.
Proof. exact (existsb_eqb_notin str_eqb str_eqb_eq x l). Qed.

Lemma pair_eqb_eq p q : pair_eqb p q = true <-> p = q.
Proof. exact (prod_eqb_eq str_eqb str_eqb str_eqb_eq str_eqb_eq p q). Qed.

Lemma pair_eqb_refl p : pair_eqb p p = true.
Proof. apply pair_eqb_eq. reflexivity. Qed.

Definition swapp (p : pair) : pair := (snd p, fst p).

Lemma upair_eqb_iff p q : upair_eqb p q = true <-> p = q \/ p = swapp q.
Proof.
  unfold upair_eqb. rewrite orb_true_iff, pair_eqb_eq, andb_true_iff, !str_eqb_eq.
  destruct p as [a b], q as [c d]. unfold swapp. cbn [fst snd].
  split; (intros [H|H]; [left; exact H|right]).
  - destruct H as [-> ->]. reflexivity.
  - inversion H. auto.
Qed.

(* a pair is in a list "as an unordered pair" *)
Definition uin (p : pair) (l : list pair) : Prop := In p l \/ In (swapp p) l.

Lemma swapp_invol p : swapp (swapp p) = p.
Proof. destruct p; reflexivity. Qed.

Lemma swapp_eq p q : swapp p = q <-> p = swapp q.
Proof. split; intros E; [rewrite <- E|rewrite E]; now rewrite swapp_invol. Qed.

(* [uin] through the boolean test: this is the form in which existsb and filter speak of it *)
Lemma uin_exists p l : uin p l <-> exists q, In q l /\ upair_eqb p q = true.
Proof.
  unfold uin. split.
  - intros [H|H]; [exists p|exists (swapp p)]; (split; [exact H|]); apply upair_eqb_iff; [now left|right].
    symmetry. apply swapp_invol.
  - intros [q [Hq E]]. apply upair_eqb_iff in E. destruct E as [->| ->]; [now left|right].
    rewrite swapp_invol. exact Hq.
Qed.

Lemma umemb_uin p l : umemb p l = true <-> uin p l.
Proof. unfold umemb. rewrite existsb_exists, uin_exists. reflexivity. Qed.

(* ---------- combinations_with_replacement ---------- *)
Lemma in_cwr2_cons {A} (x : A) t a b :
  In (a, b) (cwr2 (x :: t)) <-> (a = x /\ In b (x :: t)) \/ In (a, b) (cwr2 t).
Proof.
  cbn [cwr2]. rewrite in_app_iff, in_map_iff. split.
  - intros [[y [E Hy]]|H]; [left|right; exact H]. inversion E; subst. split; [reflexivity|exact Hy].
  - intros [[-> Hb]|H]; [left; exists b; split; [reflexivity|exact Hb]|right; exact H].
Qed.

Lemma in_cwr2_fwd {A} (l : list A) a b : In (a, b) (cwr2 l) -> In a l /\ In b l.
Proof.
  induction l as [|x t IH]; [intros []|]. rewrite in_cwr2_cons. intros [[-> Hb]|H].
  - split; [now left|exact Hb].
  - destruct (IH H). split; now right.
Qed.

Lemma in_cwr2_bwd {A} (l : list A) a b : In a l -> In b l -> In (a, b) (cwr2 l) \/ In (b, a) (cwr2 l).
Proof.
  induction l as [|x t IH]; [intros []|]. intros Ha Hb. rewrite !in_cwr2_cons.
  destruct Ha as [<-|Ha].
  - left. left. split; [reflexivity|exact Hb].
  - destruct Hb as [<-|Hb].
    + right. left. split; [reflexivity|now right].
    + destruct (IH Ha Hb); [left|right]; right; assumption.
Qed.

Lemma uin_cwr2 (l : list str) a b : uin (a, b) (cwr2 l) <-> In a l /\ In b l.
Proof.
  unfold uin, swapp. cbn [fst snd]. split.
  - intros [H|H]; apply in_cwr2_fwd in H; tauto.
  - intros [Ha Hb]. apply in_cwr2_bwd; assumption.
Qed.

(* ---------- set / sorted ---------- *)
Lemma in_dedup x l : In x (dedup l) <-> In x l.
Proof.
  induction l as [|y t IH]; [reflexivity|]. cbn [dedup]. destruct (memb y t) eqn:E.
  - rewrite IH. cbn [In]. split; [now right|]. intros [<-|H]; [apply memb_In; exact E|exact H].
  - cbn [In]. rewrite IH. reflexivity.
Qed.

Lemma dedup_nodup l : NoDup (dedup l).
Proof.
  induction l as [|y t IH]; [constructor|]. cbn [dedup]. destruct (memb y t) eqn:E; [exact IH|].
  constructor; [|exact IH]. rewrite in_dedup. apply memb_false. exact E.
Qed.

Lemma dedup_fixed l : NoDup l -> dedup l = l.
Proof.
  induction 1 as [|y t Hn Hnd IH]; [reflexivity|]. cbn [dedup].
  rewrite (proj2 (memb_false y t) Hn), IH. reflexivity.
Qed.

(* [sort_str] is the insertion sort of Common/Sort.v at str_leb (convertible) *)
Lemma sort_str_perm l : Permutation (sort_str l) l.
Proof. exact (isort_perm str_leb l). Qed.

Lemma str_leb_total a : forall b, str_leb a b = false -> str_leb b a = true.
Proof.
  induction a as [|x a IH]; intros [|y b]; cbn [str_leb]; try discriminate; [reflexivity|].
  destruct (N.ltb_spec x y); [discriminate|]. destruct (N.eqb_spec x y) as [->|Hne].
  - rewrite N.ltb_irrefl, N.eqb_refl. apply IH.
  - intros _. destruct (N.ltb_spec y x); [reflexivity|lia].
Qed.

Lemma str_leb_trans a : forall b c, str_leb a b = true -> str_leb b c = true -> str_leb a c = true.
Proof.
  induction a as [|x a IH]; intros [|y b] [|z c]; cbn [str_leb]; try discriminate; try reflexivity.
  destruct (N.ltb_spec x y) as [Hxy|Hxy].
  - intros _. destruct (N.ltb_spec y z) as [Hyz|Hyz].
    + intros _. destruct (N.ltb_spec x z); [reflexivity|lia].
    + destruct (N.eqb_spec y z) as [->|]; [|discriminate]. intros _.
      destruct (N.ltb_spec x z); [reflexivity|lia].
  - destruct (N.eqb_spec x y) as [->|]; [|discriminate]. intros Hab.
    destruct (N.ltb_spec y z); [reflexivity|]. destruct (N.eqb_spec y z) as [->|]; [|discriminate].
    apply IH. exact Hab.
Qed.

Lemma str_leb_antisym a : forall b, str_leb a b = true -> str_leb b a = true -> a = b.
Proof.
  induction a as [|x a IH]; intros [|y b]; cbn [str_leb]; try discriminate; [reflexivity|].
  destruct (N.ltb_spec x y) as [Hxy|Hxy].
  - intros _. destruct (N.ltb_spec y x); [lia|]. destruct (N.eqb_spec y x); [lia|discriminate].
  - destruct (N.eqb_spec x y) as [->|]; [|discriminate]. rewrite N.ltb_irrefl, N.eqb_refl.
    intros H1 H2. f_equal. apply IH; assumption.
Qed.

Definition str_le (a b : str) : Prop := str_leb a b = true.

Lemma sort_str_sorted l : StronglySorted str_le (sort_str l).
Proof.
  refine (isort_sorted str_leb _ str_leb_trans l).
  intros x y. destruct (str_leb x y) eqn:E; [now left|right; apply str_leb_total; exact E].
Qed.

(* sorted(...) of a set is determined by the set: any sorted arrangement of the same names is this list *)
Lemma sorted_perm_unique (l l' : list str) :
  StronglySorted str_le l -> StronglySorted str_le l' -> Permutation l l' -> l = l'.
Proof. apply (sorted_perm_eq str_leb). intros x y _ _. apply str_leb_antisym. Qed.

Lemma in_non_rel cols x : In x (non_rel_columns cols) <-> In x cols /\ is_rel x = false.
Proof.
  unfold non_rel_columns. rewrite (isort_In str_leb), in_dedup, filter_In, negb_true_iff. reflexivity.
Qed.

Lemma in_rel cols x : In x (rel_columns cols) <-> In x cols /\ is_rel x = true.
Proof. unfold rel_columns. apply filter_In. Qed.

Lemma listedb_In p l : listedb p l = true <-> In p l.
Proof. exact (existsb_eqb_In pair_eqb pair_eqb_eq p l). Qed.

Lemma listedb_false p l : listedb p l = false <-> ~ In p l.
Proof. exact (existsb_eqb_notin pair_eqb pair_eqb_eq p l). Qed.

Lemma in_map_diag (l : list str) (a b : str) : In (a, b) (map (fun c => (c, c)) l) <-> a = b /\ In a l.
Proof.
  rewrite in_map_iff. split.
  - intros [c [E H]]. inversion E; subst. auto.
  - intros [<- H]. exists a. auto.
Qed.

Lemma in_diagonal base cols label a b :
  In (a, b) (diagonal base cols label) <-> a = b /\ In a cols /\ a <> label /\ ~ In (a, a) base.
Proof.
  unfold diagonal. rewrite in_map_diag, filter_In, andb_true_iff, !negb_true_iff, str_eqb_neq, listedb_false. tauto.
Qed.

Lemma uin_app p l1 l2 : uin p (l1 ++ l2) <-> uin p l1 \/ uin p l2.
Proof. unfold uin. rewrite !in_app_iff. tauto. Qed.

Lemma uin_diagonal base cols label a b :
  uin (a, b) (diagonal base cols label) <-> a = b /\ In a cols /\ a <> label /\ ~ In (a, a) base.
Proof.
  unfold uin, swapp. cbn [fst snd]. rewrite !in_diagonal. split.
  - intros [H|[<- H]]; [exact H|]. split; [reflexivity|exact H].
  - intros H. left. exact H.
Qed.

(* base list plus the not-yet-listed diagonal: as a set, the base plus every non-label self-pair *)
Lemma uin_with_diagonal base cols label a b :
  uin (a, b) (base ++ diagonal base cols label) <-> uin (a, b) base \/ (a = b /\ In a cols /\ a <> label).
Proof.
  rewrite uin_app, uin_diagonal. split.
  - intros [H|[H1 [H2 [H3 _]]]]; [left; exact H|right; tauto].
  - intros [H|[<- [H2 H3]]]; [left; exact H|].
    destruct (listedb (a, a) base) eqn:E.
    + left. left. apply listedb_In. exact E.
    + right. apply listedb_false in E. tauto.
Qed.

(* ---------- the three modes ---------- *)
Lemma candidates_target_only cols h tro label : is_3mr h = false -> is_tonly tro = true ->
  candidates cols h tro label = filter (has_label label) (cwr2 cols).
Proof. intros H3 Ht. unfold candidates. rewrite H3, Ht. reflexivity. Qed.

Lemma candidates_pairwise cols h tro label : is_3mr h = false -> is_tonly tro = false ->
  candidates cols h tro label = cwr2 cols ++ diagonal (cwr2 cols) cols label.
Proof. intros H3 Ht. unfold candidates. rewrite H3, Ht. reflexivity. Qed.

Lemma candidates_3mr cols h tro label : is_3mr h = true ->
  candidates cols h tro label =
  let base := cwr2 (non_rel_columns cols) ++ map (fun c => (c, label)) (rel_columns cols) in
  if is_tonly tro then base else base ++ diagonal base cols label.
Proof. intros H3. unfold candidates. rewrite H3. reflexivity. Qed.

Lemma uin_filter f p l : f (swapp p) = f p -> (uin p (filter f l) <-> uin p l /\ f p = true).
Proof. intros E. unfold uin. rewrite !filter_In, E. tauto. Qed.

Theorem cands_target_only cols h tro label :
  is_3mr h = false -> is_tonly tro = true ->
  forall a b, uin (a, b) (candidates cols h tro label) <-> In a cols /\ In b cols /\ (a = label \/ b = label).
Proof.
  intros H3 Ht a b. rewrite (candidates_target_only _ _ _ _ H3 Ht), uin_filter, uin_cwr2.
  - unfold has_label. cbn [fst snd]. rewrite orb_true_iff, !str_eqb_eq.
    split; [intros [[Ha Hb] [<-|<-]]; auto|intros [Ha [Hb [->| ->]]]; auto].
  - unfold has_label, swapp. cbn [fst snd]. apply orb_comm.
Qed.

Theorem cands_pairwise cols h tro label :
  is_3mr h = false -> is_tonly tro = false ->
  forall a b, uin (a, b) (candidates cols h tro label) <-> In a cols /\ In b cols.
Proof.
  intros H3 Ht a b. rewrite (candidates_pairwise _ _ _ _ H3 Ht), uin_with_diagonal, uin_cwr2. split.
  - intros [H|[<- [H _]]]; tauto.
  - intros H. left. exact H.
Qed.

Definition spec_3mr (cols : list str) (tro label a b : str) : Prop :=
  (In a cols /\ In b cols /\ is_rel a = false /\ is_rel b = false)
  \/ (In a cols /\ is_rel a = true /\ b = label)
  \/ (a = label /\ In b cols /\ is_rel b = true)
  \/ (is_tonly tro = false /\ a = b /\ In a cols /\ a <> label).

Lemma in_map_pair_r (l : list str) (y a b : str) : In (a, b) (map (fun c => (c, y)) l) <-> In a l /\ b = y.
Proof.
  rewrite in_map_iff. split.
  - intros [c [E H]]. inversion E; subst. auto.
  - intros [H ->]. exists a. auto.
Qed.

Lemma uin_rel_label cols label a b :
  uin (a, b) (map (fun c => (c, label)) (rel_columns cols)) <->
  (In a cols /\ is_rel a = true /\ b = label) \/ (a = label /\ In b cols /\ is_rel b = true).
Proof. unfold uin, swapp. cbn [fst snd]. rewrite !in_map_pair_r, !in_rel. tauto. Qed.

Theorem cands_3mr cols h tro label :
  is_3mr h = true ->
  forall a b, uin (a, b) (candidates cols h tro label) <-> spec_3mr cols tro label a b.
Proof.
  intros H3 a b. rewrite (candidates_3mr _ _ _ _ H3). unfold spec_3mr. cbv zeta. destruct (is_tonly tro) eqn:Ht.
  - rewrite uin_app, uin_cwr2, !in_non_rel, uin_rel_label. split.
    + intros [H|[H|H]]; [left; tauto|right; left; exact H|right; right; left; exact H].
    + intros [H|[H|[H|[H _]]]]; [left; tauto|right; left; exact H|right; right; exact H|discriminate].
  - rewrite uin_with_diagonal, uin_app, uin_cwr2, !in_non_rel, uin_rel_label. split.
    + intros [[H|[H|H]]|H]; [left; tauto|right; left; exact H|right; right; left; exact H|right; right; right; tauto].
    + intros [H|[H|[H|[_ H]]]]; [left; left; tauto|left; right; left; exact H|left; right; right; exact H|right; exact H].
Qed.

(* the decidable form of the specification agrees with the three statements *)
Theorem spec_pairb_iff cols h tro label p :
  spec_pairb cols h tro label p = true <-> uin p (candidates cols h tro label).
Proof.
  destruct p as [a b]. unfold spec_pairb. cbn [fst snd]. destruct (is_3mr h) eqn:H3.
  - rewrite (cands_3mr cols h tro label H3). unfold spec_3mr.
    rewrite !orb_true_iff, !andb_true_iff, !negb_true_iff, !memb_In, !str_eqb_eq, str_eqb_neq. tauto.
  - destruct (is_tonly tro) eqn:Ht.
    + rewrite (cands_target_only cols h tro label H3 Ht).
      rewrite !andb_true_iff, orb_true_iff, !memb_In, !str_eqb_eq. tauto.
    + rewrite (cands_pairwise cols h tro label H3 Ht). rewrite andb_true_iff, !memb_In. tauto.
Qed.

Lemma spec_pairb_sym cols h tro label p : spec_pairb cols h tro label (swapp p) = spec_pairb cols h tro label p.
Proof.
  apply eq_true_iff_eq. rewrite !spec_pairb_iff. unfold uin. destruct p as [a b]. unfold swapp. cbn [fst snd]. tauto.
Qed.

(* every name of a candidate is a column of the frame *)
Theorem cands_closed cols h tro label : In label cols ->
  forall a b, In (a, b) (candidates cols h tro label) -> In a cols /\ In b cols.
Proof.
  intros Hl a b H. assert (U : uin (a, b) (candidates cols h tro label)) by (left; exact H). clear H.
  destruct (is_3mr h) eqn:H3.
  - apply (cands_3mr cols h tro label H3) in U. unfold spec_3mr in U. intuition (subst; assumption).
  - destruct (is_tonly tro) eqn:Ht.
    + apply (cands_target_only cols h tro label H3 Ht) in U. tauto.
    + apply (cands_pairwise cols h tro label H3 Ht) in U. tauto.
Qed.

(* ---------- list-level reading: multiplicities ---------- *)
Lemma cwr2_nodup {A} (l : list A) : NoDup l -> NoDup (cwr2 l).
Proof.
  induction 1 as [|x t Hn Hnd IH]; [constructor|]. cbn [cwr2]. apply NoDup_app_intro.
  - apply FinFun.Injective_map_NoDup; [intros u v E; inversion E; reflexivity|constructor; assumption].
  - exact IH.
  - intros [a b] H1 H2. apply in_map_iff in H1. destruct H1 as [y [E _]]. inversion E; subst.
    apply in_cwr2_fwd in H2. tauto.
Qed.

Lemma cwr2_orient {A} (l : list A) a b : NoDup l -> In (a, b) (cwr2 l) -> In (b, a) (cwr2 l) -> a = b.
Proof.
  induction 1 as [|x t Hn Hnd IH]; [intros []|]. rewrite !in_cwr2_cons. intros [[-> H1]|H1] [[-> H2]|H2].
  - reflexivity.
  - apply in_cwr2_fwd in H2. tauto.
  - apply in_cwr2_fwd in H1. tauto.
  - apply IH; assumption.
Qed.

Lemma non_rel_nodup cols : NoDup (non_rel_columns cols).
Proof.
  unfold non_rel_columns. eapply Permutation_NoDup; [symmetry; apply sort_str_perm|apply dedup_nodup].
Qed.

Definition once (l : list pair) : Prop := NoDup l /\ (forall a b, In (a, b) l -> In (b, a) l -> a = b).

Lemma once_cwr2 (l : list str) : NoDup l -> once (cwr2 l).
Proof. intros H. split; [apply cwr2_nodup; exact H|intros a b; apply cwr2_orient; exact H]. Qed.

Lemma once_filter f l : once l -> once (filter f l).
Proof.
  intros [H1 H2]. split; [apply NoDup_filter; exact H1|].
  intros a b Ha Hb. apply filter_In in Ha, Hb. apply H2; tauto.
Qed.

Lemma once_app l1 l2 : once l1 -> once l2 ->
  (forall a b, In (a, b) l1 -> ~ In (a, b) l2 /\ ~ In (b, a) l2) -> once (l1 ++ l2).
Proof.
  intros [N1 O1] [N2 O2] Hd. split.
  - apply NoDup_app_intro; [exact N1|exact N2|]. intros [a b] H. exact (proj1 (Hd a b H)).
  - intros a b. rewrite !in_app_iff. intros [Ha|Ha] [Hb|Hb].
    + apply O1; assumption.
    + destruct (Hd a b Ha) as [_ H]. contradiction.
    + destruct (Hd b a Hb) as [_ H]. contradiction.
    + apply O2; assumption.
Qed.

Lemma once_map_pair_r (l : list str) (y : str) : NoDup l -> once (map (fun c => (c, y)) l).
Proof.
  intros H. split.
  - apply FinFun.Injective_map_NoDup; [intros u v E; inversion E; reflexivity|exact H].
  - intros a b. rewrite !in_map_pair_r. intros [_ ->] [_ ->]. reflexivity.
Qed.

Lemma once_3mr_base cols label : NoDup cols ->
  once (cwr2 (non_rel_columns cols) ++ map (fun c => (c, label)) (rel_columns cols)).
Proof.
  intros Hnd. apply once_app.
  - apply once_cwr2, non_rel_nodup.
  - apply once_map_pair_r, NoDup_filter, Hnd.
  - (* a pair of non-relation columns has no relation column on either side *)
    intros a b H. apply in_cwr2_fwd in H. rewrite !in_non_rel in H. rewrite !in_map_pair_r, !in_rel.
    split; intros [[_ E] _]; destruct H as [[_ Ha] [_ Hb]]; congruence.
Qed.

Lemma once_diagonal base cols label : NoDup cols -> once (diagonal base cols label).
Proof.
  intros H. split.
  - unfold diagonal. apply FinFun.Injective_map_NoDup; [intros u v E; inversion E; reflexivity|].
    apply NoDup_filter. exact H.
  - intros a b Ha _. apply in_diagonal in Ha. tauto.
Qed.

Lemma once_with_diagonal base cols label : NoDup cols -> once base -> once (base ++ diagonal base cols label).
Proof.
  intros Hnd Hb. apply once_app; [exact Hb|apply once_diagonal; exact Hnd|].
  (* the diagonal only holds self-pairs that the base does not list *)
  intros a b H. rewrite !in_diagonal. split; intros [E [_ [_ Hn]]]; subst; contradiction.
Qed.

(* every mode: the candidate list is duplicate-free and holds one orientation of each pair *)
Theorem cands_once cols h tro label : NoDup cols -> once (candidates cols h tro label).
Proof.
  intros Hnd. destruct (is_3mr h) eqn:H3; [|destruct (is_tonly tro) eqn:Ht].
  - rewrite (candidates_3mr _ _ _ _ H3). cbv zeta. pose proof (once_3mr_base cols label Hnd) as Hb.
    destruct (is_tonly tro); [exact Hb|apply once_with_diagonal; assumption].
  - rewrite (candidates_target_only _ _ _ _ H3 Ht). apply once_filter, once_cwr2, Hnd.
  - rewrite (candidates_pairwise _ _ _ _ H3 Ht). apply once_with_diagonal; [exact Hnd|apply once_cwr2, Hnd].
Qed.

Lemma filter_length_cons {A} (f : A -> bool) x l :
  length (filter f (x :: l)) = (if f x then 1 else 0) + length (filter f l).
Proof. cbn [filter]. destruct (f x); reflexivity. Qed.

Lemma filter_length_app {A} (f : A -> bool) l1 l2 :
  length (filter f (l1 ++ l2)) = length (filter f l1) + length (filter f l2).
Proof. rewrite filter_app. apply app_length. Qed.

Lemma count_eqb_pos {A} (eqb : A -> A -> bool) (Heq : forall x y, eqb x y = true <-> x = y) x l :
  0 < length (filter (eqb x) l) <-> In x l.
Proof. rewrite filter_length_pos, <- (existsb_eqb_In eqb Heq), existsb_exists. reflexivity. Qed.

Lemma count_eqb_zero {A} (eqb : A -> A -> bool) (Heq : forall x y, eqb x y = true <-> x = y) x l :
  ~ In x l -> length (filter (eqb x) l) = 0.
Proof. rewrite <- (count_eqb_pos eqb Heq). lia. Qed.

Lemma ucount_cons p q l : ucount p (q :: l) = (if upair_eqb p q then 1 else 0) + ucount p l.
Proof. apply filter_length_cons. Qed.

Lemma ucount_app p l1 l2 : ucount p (l1 ++ l2) = ucount p l1 + ucount p l2.
Proof. apply filter_length_app. Qed.

Lemma ucount_pos_iff p l : 0 < ucount p l <-> uin p l.
Proof. unfold ucount. rewrite filter_length_pos, uin_exists. reflexivity. Qed.

Lemma ucount_zero p l : ~ uin p l -> ucount p l = 0.
Proof. rewrite <- ucount_pos_iff. lia. Qed.

Lemma ucount_le_1 p l : once l -> ucount p l <= 1.
Proof.
  intros [Hnd Ho]. revert Ho. induction Hnd as [|q l Hn Hnd IH]; intros Ho; [cbn; lia|]. rewrite ucount_cons.
  assert (IH' : ucount p l <= 1) by (apply IH; intros a b H1 H2; apply Ho; now right).
  destruct (upair_eqb p q) eqn:E; [|lia]. rewrite ucount_zero; [lia|].
  (* p is q up to orientation, so an occurrence of p in l is an occurrence of q or of its mirror; the mirror of q
     beside q forces q to be a self-pair, hence again q *)
  assert (Hq : ~ In q l /\ ~ In (swapp q) l).
  { split; [exact Hn|]. intros Hs. destruct q as [a b]. unfold swapp in Hs. cbn [fst snd] in Hs.
    assert (a = b) by (apply Ho; [now left|now right]). subst. contradiction. }
  apply upair_eqb_iff in E. unfold uin. destruct E as [-> | ->]; rewrite ?swapp_invol; tauto.
Qed.

Definition inj_on (enc : pair -> key) (U : list pair) : Prop :=
  forall p q, In p U -> In q U -> enc p = enc q -> p = q.

Definition pcount (p : pair) (l : list pair) : nat := length (filter (pair_eqb p) l).

(* what "reduced only by the cap" means for one batch: a sub-multiset of the candidates of the slice's length *)
Definition selected_ok (cands : list pair) (cap' : Z) (sel : list pair) : Prop :=
  length sel = slice_len (length cands) cap' /\ exists rest, Permutation (sel ++ rest) cands.

Lemma pcount_cons p q l : pcount p (q :: l) = (if pair_eqb p q then 1 else 0) + pcount p l.
Proof. apply filter_length_cons. Qed.

Lemma pcount_app p l1 l2 : pcount p (l1 ++ l2) = pcount p l1 + pcount p l2.
Proof. apply filter_length_app. Qed.

Lemma pcount_pos_in p l : 0 < pcount p l <-> In p l.
Proof. exact (count_eqb_pos pair_eqb pair_eqb_eq p l). Qed.

Lemma pcount_notin p l : ~ In p l -> pcount p l = 0.
Proof. exact (count_eqb_zero pair_eqb pair_eqb_eq p l). Qed.

Lemma cocc_map_enc enc U l p : inj_on enc U -> incl l U -> In p U ->
  count_occ Nat.eq_dec (map enc l) (enc p) = pcount p l.
Proof.
  intros Hi Hl Hp. induction l as [|q l IH]; [reflexivity|]. cbn [map]. rewrite pcount_cons.
  assert (Hq : In q U) by (apply Hl; now left).
  assert (IH' : count_occ Nat.eq_dec (map enc l) (enc p) = pcount p l) by (apply IH; intros x Hx; apply Hl; now right).
  cbn [count_occ]. destruct (Nat.eq_dec (enc q) (enc p)) as [e|ne].
  - apply Hi in e; [|exact Hq|exact Hp]. subst q. rewrite pair_eqb_refl, IH'. reflexivity.
  - destruct (pair_eqb p q) eqn:E; [apply pair_eqb_eq in E; subst; contradiction|]. rewrite IH'. reflexivity.
Qed.

Lemma submultiset_perm l1 : forall l2, (forall p, pcount p l1 <= pcount p l2) -> exists rest, Permutation (l1 ++ rest) l2.
Proof.
  induction l1 as [|a l1 IH]; intros l2 H; [exists l2; reflexivity|].
  assert (Ha : In a l2).
  { apply pcount_pos_in. specialize (H a). rewrite pcount_cons, pair_eqb_refl in H. lia. }
  apply in_split in Ha. destruct Ha as [u [v ->]].
  destruct (IH (u ++ v)) as [rest HP].
  { intros p. specialize (H p). rewrite pcount_cons, pcount_app, pcount_cons in H. rewrite pcount_app. lia. }
  exists rest. cbn [app]. rewrite <- Permutation_middle. constructor. exact HP.
Qed.

Lemma selected_ok_incl cands cap' sel : selected_ok cands cap' sel -> incl sel cands.
Proof. intros [_ [rest HR]] p Hp. eapply Permutation_in; [exact HR|]. apply in_or_app. now left. Qed.

Theorem selected_from_sampler (enc : pair -> key) st cands cap' sel st' :
  inj_on enc (cands ++ sel) ->
  valid_step st (map enc cands) cap' (map enc sel) st' ->
  incl sel cands /\ selected_ok cands cap' sel.
Proof.
  intros Hi V.
  assert (Hc : forall p, pcount p sel <= pcount p cands).
  { intros p. destruct (pcount p sel) eqn:E; [lia|]. rewrite <- E.
    assert (Hp : In p sel) by (apply pcount_pos_in; lia).
    pose proof (vs_sub _ _ _ _ _ V (enc p)) as Hs.
    rewrite (cocc_map_enc enc (cands ++ sel) sel p Hi), (cocc_map_enc enc (cands ++ sel) cands p Hi) in Hs;
      try (intros x Hx; apply in_or_app; tauto); try (apply in_or_app; tauto). exact Hs. }
  assert (S : selected_ok cands cap' sel).
  { split; [|apply submultiset_perm; exact Hc]. pose proof (vs_len _ _ _ _ _ V) as Hl. rewrite !map_length in Hl. exact Hl. }
  split; [exact (selected_ok_incl _ _ _ S)|exact S].
Qed.

Lemma selected_ok_nonneg cands cap' sel : (0 <= cap')%Z -> selected_ok cands cap' sel ->
  length sel = Nat.min (length cands) (Z.to_nat cap').
Proof. intros H [Hl _]. rewrite Hl. apply slice_len_nonneg, H. Qed.

Lemma selected_ok_perm cands cap' sel ev : Permutation ev sel -> selected_ok cands cap' sel -> selected_ok cands cap' ev.
Proof.
  intros HP [Hl [rest HR]]. split; [rewrite (Permutation_length HP); exact Hl|].
  exists rest. rewrite HP. exact HR.
Qed.

Lemma selected_ok_full cands cap' sel : (Z.of_nat (length cands) <= cap')%Z -> selected_ok cands cap' sel ->
  Permutation sel cands.
Proof.
  intros Hcap [Hlen [rest HP]]. rewrite (slice_len_full _ _ Hcap) in Hlen.
  assert (Hrest : rest = []); [|subst rest; rewrite app_nil_r in HP; exact HP].
  apply length_zero_iff_nil. pose proof (Permutation_length HP) as E. rewrite app_length in E. lia.
Qed.

(* the transcription of the sampler on the candidate list *)
Lemma nth_pidx cands p : In p cands -> nth (pidx cands p) cands nopair = p.
Proof.
  induction cands as [|q t IH]; [intros []|]. intros H. cbn [pidx]. destruct (pair_eqb p q) eqn:E.
  - apply pair_eqb_eq in E. subst. reflexivity.
  - cbn [nth]. apply IH. destruct H as [->|H]; [rewrite pair_eqb_refl in E; discriminate|exact H].
Qed.

Lemma pidx_inj cands p q : In p cands -> In q cands -> pidx cands p = pidx cands q -> p = q.
Proof. intros Hp Hq E. rewrite <- (nth_pidx cands p Hp), <- (nth_pidx cands q Hq), E. reflexivity. Qed.

Lemma decode_pidx cands l : incl l (map (pidx cands) cands) ->
  incl (map (fun i => nth i cands nopair) l) cands /\ map (pidx cands) (map (fun i => nth i cands nopair) l) = l.
Proof.
  intros H. assert (D : forall i, In i l -> In (nth i cands nopair) cands /\ pidx cands (nth i cands nopair) = i).
  { intros i Hi. apply H, in_map_iff in Hi. destruct Hi as [q [<- Hq]]. rewrite nth_pidx by exact Hq. auto. }
  split.
  - intros p Hp. apply in_map_iff in Hp. destruct Hp as [i [<- Hi]]. apply D, Hi.
  - rewrite map_map. rewrite <- (map_id l) at 2. apply map_ext_in. intros i Hi. apply D, Hi.
Qed.

Lemma select_fst_incl s cands cap' : incl (fst (select s cands cap')) cands.
Proof.
  unfold select. cbn [fst]. apply decode_pidx. exact (vs_incl _ _ _ _ _ (step_valid s (map (pidx cands) cands) cap')).
Qed.

Theorem select_valid s cands cap' :
  valid_step (get s) (map (pidx cands) cands) cap'
             (map (pidx cands) (fst (select s cands cap'))) (get (snd (select s cands cap'))).
Proof.
  pose proof (step_valid s (map (pidx cands) cands) cap') as V. unfold select. cbn [fst snd].
  rewrite (proj2 (decode_pidx cands _ (vs_incl _ _ _ _ _ V))). exact V.
Qed.

Theorem select_ok s cands cap' : selected_ok cands cap' (fst (select s cands cap')).
Proof.
  apply (selected_from_sampler (pidx cands) (get s) cands cap' _ (get (snd (select s cands cap')))).
  - assert (I : incl (cands ++ fst (select s cands cap')) cands)
      by (apply incl_app; [apply incl_refl|apply select_fst_incl]).
    intros p q Hp Hq. apply pidx_inj; apply I; assumption.
  - apply select_valid.
Qed.

Lemma swap3_invol r : swap3 (swap3 r) = r.
Proof. destruct r as [[a b] s]. reflexivity. Qed.

Lemma row_eqb_eq r r' : row_eqb r r' = true <-> r = r'.
Proof. exact (prod_eqb_eq pair_eqb N.eqb pair_eqb_eq N.eqb_eq r r'). Qed.

Lemma row_eqb_swap r t : row_eqb r (swap3 t) = row_eqb (swap3 r) t.
Proof.
  apply eq_true_iff_eq. rewrite !row_eqb_eq. split; intros H.
  - rewrite H. apply swap3_invol.
  - rewrite <- H. symmetry. apply swap3_invol.
Qed.

Lemma rcount_cons r x l : rcount r (x :: l) = (if row_eqb r x then 1 else 0) + rcount r l.
Proof. apply filter_length_cons. Qed.

Lemma rcount_pos_in r l : 0 < rcount r l <-> In r l.
Proof. exact (count_eqb_pos row_eqb row_eqb_eq r l). Qed.

Lemma in_mirror r T : In r (mirror T) <-> In r T \/ In (swap3 r) T.
Proof.
  unfold mirror. rewrite in_flat_map. split.
  - intros [t [Ht [<-|[<-|[]]]]]; [right; rewrite swap3_invol; exact Ht|left; exact Ht].
  - intros [H|H]; [exists r; split; [exact H|right; now left]|].
    exists (swap3 r). split; [exact H|left; apply swap3_invol].
Qed.

Lemma mirror_cons t T : mirror (t :: T) = swap3 t :: t :: mirror T.
Proof. reflexivity. Qed.

Lemma length_mirror T : length (mirror T) = 2 * length T.
Proof. induction T as [|t T IH]; [reflexivity|]. rewrite mirror_cons. cbn [length]. lia. Qed.

Lemma rcount_mirror r T : rcount r (mirror T) = rcount r T + rcount (swap3 r) T.
Proof.
  induction T as [|t T IH]; [reflexivity|]. rewrite mirror_cons, !rcount_cons, IH, row_eqb_swap. lia.
Qed.

Lemma rcount_mirror_sym r T : rcount r (mirror T) = rcount (swap3 r) (mirror T).
Proof. rewrite !rcount_mirror, swap3_invol. lia. Qed.

Lemma rcount_mirror_self r T : fst (rp r) = snd (rp r) -> Nat.even (rcount r (mirror T)) = true.
Proof.
  intros H. rewrite rcount_mirror. replace (swap3 r) with r; [rewrite Nat.even_add; destruct (Nat.even (rcount r T)); reflexivity|].
  destruct r as [[a b] s]. unfold rp in H. cbn [fst snd] in H. subst. reflexivity.
Qed.

Lemma upair_eqb_swapp p q : upair_eqb p (swapp q) = upair_eqb p q.
Proof.
  apply eq_true_iff_eq. rewrite !upair_eqb_iff, swapp_invol. tauto.
Qed.

Lemma rp_swap3 r : rp (swap3 r) = swapp (rp r).
Proof. destruct r as [[a b] s]. reflexivity. Qed.

Lemma ucount_mirror p T : ucount p (map rp (mirror T)) = 2 * ucount p (map rp T).
Proof.
  induction T as [|t T IH]; [reflexivity|]. rewrite mirror_cons. cbn [map].
  rewrite !ucount_cons, IH, rp_swap3, upair_eqb_swapp. lia.
Qed.

Lemma rp_triplets ev : forall scores, length scores = length ev -> map rp (triplets ev scores) = ev.
Proof.
  unfold triplets. induction ev as [|[a b] ev IH]; intros [|s scores] H; try discriminate; [reflexivity|].
  cbn [combine map]. unfold rp at 1. cbn [fst snd]. f_equal. apply IH. cbn [length] in H. lia.
Qed.

Lemma rp_constant ev : map rp (constant_rows ev) = ev.
Proof.
  unfold constant_rows. rewrite map_map. rewrite (map_ext _ (fun p => p)); [apply map_id|].
  intros [a b]. reflexivity.
Qed.

Lemma ucount_perm p l l' : Permutation l l' -> ucount p l = ucount p l'.
Proof. apply filter_length_perm. Qed.

Lemma length_triplets ev scores : length scores = length ev -> length (triplets ev scores) = length ev.
Proof. intros H. rewrite <- (map_length rp), (rp_triplets ev scores H). reflexivity. Qed.

Lemma in_constant_rows r ev : In r (constant_rows ev) <-> exists p, In p ev /\ r = (fst p, snd p, 0%N).
Proof. unfold constant_rows. rewrite in_map_iff. split; intros [p [H1 H2]]; exists p; auto. Qed.

Lemma build_rows_const h ev scores : is_const h = true -> build_rows h ev scores = constant_rows ev.
Proof. intros H. unfold build_rows. rewrite H. reflexivity. Qed.

Lemma build_rows_scored h ev scores : is_const h = false -> build_rows h ev scores = mirror (triplets ev scores).
Proof. intros H. unfold build_rows. rewrite H. reflexivity. Qed.

Lemma build_rows_pairs h ev scores r : length scores = length ev ->
  In r (build_rows h ev scores) -> In (rp r) ev \/ In (swapp (rp r)) ev.
Proof.
  intros Hl Hr. destruct (is_const h) eqn:Hk.
  - rewrite (build_rows_const _ _ _ Hk) in Hr. left. rewrite <- (rp_constant ev). apply in_map, Hr.
  - rewrite (build_rows_scored _ _ _ Hk) in Hr. apply in_mirror in Hr. rewrite <- (rp_triplets ev scores Hl).
    destruct Hr as [Hr|Hr]; [left|right; rewrite <- rp_swap3]; apply in_map, Hr.
Qed.

Lemma build_rows_covers h ev scores p : length scores = length ev ->
  In p ev -> exists s, In (fst p, snd p, s) (build_rows h ev scores).
Proof.
  intros Hl Hp. destruct (is_const h) eqn:Hk.
  - rewrite (build_rows_const _ _ _ Hk). exists 0%N. apply in_constant_rows. exists p. auto.
  - rewrite (build_rows_scored _ _ _ Hk). rewrite <- (rp_triplets ev scores Hl) in Hp.
    apply in_map_iff in Hp. destruct Hp as [[q s] [<- Hr]]. exists s. apply in_mirror. left.
    unfold rp. cbn [fst snd]. rewrite <- surjective_pairing. exact Hr.
Qed.

Lemma ucount_selected p cands cap' ev : selected_ok cands cap' ev -> ucount p ev <= ucount p cands.
Proof. intros [_ [rest HR]]. rewrite <- (ucount_perm p _ _ HR), ucount_app. lia. Qed.

(* the clauses one batch's rows must satisfy, relative to the candidate list and the effective cap *)
Record rows_spec (cols : list str) (h : str) (cands : list pair) (cap' : Z) (rows : list row) : Prop := {
  rs_closed : forall r, In r rows -> In (fst (rp r)) cols /\ In (snd (rp r)) cols;
  rs_const : is_const h = true ->
    length rows = slice_len (length cands) cap'
    /\ (forall r, In r rows -> snd r = 0%N)
    /\ (forall p, ucount p (map rp rows) <= ucount p cands);
  rs_mirror : is_const h = false ->
    length rows = 2 * slice_len (length cands) cap'
    /\ (forall r, rcount r rows = rcount (swap3 r) rows)
    /\ (forall r, fst (rp r) = snd (rp r) -> Nat.even (rcount r rows) = true)
    /\ (forall p, ucount p (map rp rows) <= 2 * ucount p cands)
}.

(* one call of mixed_rank_graph: some sub-multiset of the candidates of the slice's length, in some order
   (random.shuffle), scored by some answers, assembled by the mirror loop / the Constant shortcut *)
Definition valid_batch (cols : list str) (h tro label : str) (cap : Z) (rows : list row) : Prop :=
  exists ev scores, selected_ok (candidates cols h tro label) (eff_cap h cap) ev
                    /\ length scores = length ev /\ rows = build_rows h ev scores.

Lemma in_rp_of_row r rows : In r rows -> In (rp r) (map rp rows).
Proof. apply in_map. Qed.

Theorem build_rows_spec cols h cands cap' ev scores :
  (forall a b, In (a, b) cands -> In a cols /\ In b cols) ->
  selected_ok cands cap' ev -> length scores = length ev ->
  rows_spec cols h cands cap' (build_rows h ev scores).
Proof.
  intros Hc Hs Hl. pose proof (selected_ok_incl _ _ _ Hs) as Hincl. constructor.
  - intros r Hr. destruct (build_rows_pairs h ev scores r Hl Hr) as [H|H]; apply Hincl in H.
    + rewrite (surjective_pairing (rp r)) in H. apply Hc, H.
    + apply Hc in H. tauto.
  - intros Hk. rewrite (build_rows_const _ _ _ Hk). split; [|split].
    + unfold constant_rows. rewrite map_length. apply Hs.
    + intros r Hr. apply in_constant_rows in Hr. destruct Hr as [p [_ ->]]. reflexivity.
    + intros p. rewrite rp_constant. eapply ucount_selected. exact Hs.
  - intros Hk. rewrite (build_rows_scored _ _ _ Hk). split; [|split; [|split]].
    + rewrite length_mirror, (length_triplets _ _ Hl). destruct Hs as [-> _]. reflexivity.
    + intros r. apply rcount_mirror_sym.
    + intros r. apply rcount_mirror_self.
    + intros p. rewrite ucount_mirror, (rp_triplets ev scores Hl). pose proof (ucount_selected p _ _ _ Hs). lia.
Qed.

(* consequences in the words of the property *)
Lemma rows_spec_requested cols h cands cap' rows : rows_spec cols h cands cap' rows ->
  forall r, In r rows -> uin (rp r) cands.
Proof.
  intros S r Hr. apply ucount_pos_iff.
  assert (0 < ucount (rp r) (map rp rows)) by (apply ucount_pos_iff; left; apply in_map, Hr).
  destruct (is_const h) eqn:Hk.
  - destruct (rs_const _ _ _ _ _ S Hk) as [_ [_ Hu]]. specialize (Hu (rp r)). lia.
  - destruct (rs_mirror _ _ _ _ _ S Hk) as [_ [_ [_ Hu]]]. specialize (Hu (rp r)). lia.
Qed.

Lemma rows_spec_mirrored cols h cands cap' rows : rows_spec cols h cands cap' rows -> is_const h = false ->
  forall a b s, In (a, b, s) rows -> In (b, a, s) rows.
Proof.
  intros S Hk a b s Hr. destruct (rs_mirror _ _ _ _ _ S Hk) as [_ [Hm _]].
  apply rcount_pos_in. apply rcount_pos_in in Hr. specialize (Hm (a, b, s)). unfold swap3 in Hm. cbn [fst snd] in Hm. lia.
Qed.

(* ---------- the checker decides exactly these clauses ---------- *)
Lemma rcount_zero r rows : ~ In r rows -> rcount r rows = 0.
Proof. exact (count_eqb_zero row_eqb row_eqb_eq r rows). Qed.

Lemma ucount_swapp p l : ucount (swapp p) l = ucount p l.
Proof.
  unfold ucount. f_equal. apply filter_ext. intros q. apply eq_true_iff_eq.
  rewrite !upair_eqb_iff, (swapp_eq p q), (swapp_eq p (swapp q)), swapp_invol. tauto.
Qed.

Lemma ucount_all (rps cands : list pair) k :
  (forall p, In p rps -> ucount p rps <= k * ucount p cands) -> forall p, ucount p rps <= k * ucount p cands.
Proof.
  intros H p. destruct (umemb p rps) eqn:E.
  - apply umemb_uin in E. destruct E as [E|E]; [apply H, E|].
    rewrite <- (ucount_swapp p rps), <- (ucount_swapp p cands). apply H, E.
  - rewrite ucount_zero; [lia|]. rewrite <- umemb_uin. congruence.
Qed.

(* The checker only visits the rows that are there; for the others both counts are 0, so what it finds holds of every row. *)
Lemma rcount_sym_all rows :
  (forall r, In r rows -> rcount r rows = rcount (swap3 r) rows) -> forall r, rcount r rows = rcount (swap3 r) rows.
Proof.
  intros H r. destruct (Nat.eq_dec (rcount r rows) 0) as [E|E]; [|apply H, rcount_pos_in; lia].
  destruct (Nat.eq_dec (rcount (swap3 r) rows) 0) as [E'|E']; [lia|].
  assert (Hin : In (swap3 r) rows) by (apply rcount_pos_in; lia).
  specialize (H _ Hin). rewrite swap3_invol in H. lia.
Qed.

Lemma rcount_even_all (P : row -> Prop) rows :
  (forall r, In r rows -> P r -> Nat.even (rcount r rows) = true) -> forall r, P r -> Nat.even (rcount r rows) = true.
Proof.
  intros H r Hr. destruct (Nat.eq_dec (rcount r rows) 0) as [->|E]; [reflexivity|].
  apply H; [apply rcount_pos_in; lia|exact Hr].
Qed.

Theorem rows_okb_iff cols h cands cap' rows :
  rows_okb cols h cands cap' rows = true <-> rows_spec cols h cands cap' rows.
Proof.
  unfold rows_okb, closedb. split.
  - intros H. apply andb_true_iff in H. destruct H as [Hc H]. rewrite forallb_forall in Hc. constructor.
    + intros r Hr. specialize (Hc r Hr). apply andb_true_iff in Hc. rewrite !memb_In in Hc. exact Hc.
    + intros Hk. rewrite Hk in H. rewrite !andb_true_iff in H. destruct H as [[H1 H2] H3].
      rewrite forallb_forall in H2, H3. split; [apply Nat.eqb_eq; exact H1|]. split.
      * intros r Hr. apply N.eqb_eq. apply H2. exact Hr.
      * intros p. rewrite <- (Nat.mul_1_l (ucount p cands)). apply ucount_all. intros q Hq.
        apply in_map_iff in Hq. destruct Hq as [r [<- Hr]]. specialize (H3 r Hr). apply Nat.leb_le in H3. lia.
    + intros Hk. rewrite Hk in H. rewrite !andb_true_iff in H. destruct H as [[[H1 H2] H3] H4].
      rewrite forallb_forall in H2, H3, H4. split; [apply Nat.eqb_eq; exact H1|]. split; [|split].
      * apply rcount_sym_all. intros r Hr. apply Nat.eqb_eq, H2, Hr.
      * apply (rcount_even_all (fun r => fst (rp r) = snd (rp r))). intros r Hr E. specialize (H3 r Hr).
        apply str_eqb_eq in E. rewrite E in H3. exact H3.
      * intros p. apply ucount_all. intros q Hq.
        apply in_map_iff in Hq. destruct Hq as [r [<- Hr]]. specialize (H4 r Hr). apply Nat.leb_le in H4. exact H4.
  - intros [Hc Hk Hm]. apply andb_true_iff. split.
    + apply forallb_forall. intros r Hr. apply andb_true_iff. rewrite !memb_In. apply Hc. exact Hr.
    + destruct (is_const h).
      * destruct (Hk eq_refl) as [H1 [H2 H3]]. rewrite !andb_true_iff. split; [split|].
        -- apply Nat.eqb_eq. exact H1.
        -- apply forallb_forall. intros r Hr. apply N.eqb_eq. apply H2. exact Hr.
        -- apply forallb_forall. intros r _. apply Nat.leb_le. apply H3.
      * destruct (Hm eq_refl) as [H1 [H2 [H3 H4]]]. rewrite !andb_true_iff. split; [split; [split|]|].
        -- apply Nat.eqb_eq. exact H1.
        -- apply forallb_forall. intros r _. apply Nat.eqb_eq. apply H2.
        -- apply forallb_forall. intros r _. destruct (str_eqb (fst (rp r)) (snd (rp r))) eqn:E; [|reflexivity].
           cbn [negb orb]. apply H3. apply str_eqb_eq. exact E.
        -- apply forallb_forall. intros r _. apply Nat.leb_le. apply H4.
Qed.

Lemma in_all_pairs cols a b : In (a, b) (all_pairs cols) <-> In a cols /\ In b cols.
Proof.
  unfold all_pairs. rewrite in_flat_map. split.
  - intros [x [Hx H]]. apply in_map_iff in H. destruct H as [y [E Hy]]. inversion E; subst. tauto.
  - intros [Ha Hb]. exists a. split; [exact Ha|]. apply in_map_iff. exists b. tauto.
Qed.

Lemma uin_swapp p l : uin (swapp p) l <-> uin p l.
Proof. unfold uin. rewrite swapp_invol. tauto. Qed.

Theorem cands_okb_iff cols h tro label cands : In label cols ->
  (cands_okb cols h tro label cands = true <-> forall p, uin p cands <-> uin p (candidates cols h tro label)).
Proof.
  intros Hl. unfold cands_okb. rewrite andb_true_iff, !forallb_forall. split.
  - intros [H1 H2] p. split.
    + intros [U|U]; apply H1, spec_pairb_iff in U; [exact U|apply uin_swapp; exact U].
    + intros U. apply umemb_uin.
      assert (Hin : In p (all_pairs cols)).
      { destruct p as [a b]. apply in_all_pairs. destruct U as [U|U]; apply (cands_closed cols h tro label Hl) in U;
          unfold swapp in U; cbn [fst snd] in U; tauto. }
      specialize (H2 p Hin). apply spec_pairb_iff in U. rewrite U in H2. exact H2.
  - intros H. split.
    + intros p Hp. apply spec_pairb_iff, H. left. exact Hp.
    + intros p _. destruct (spec_pairb cols h tro label p) eqn:E; [|reflexivity]. cbn [negb orb].
      apply umemb_uin, H, spec_pairb_iff, E.
Qed.

(* ---------- the position-level checks equal the name-level ones ---------- *)
Lemma sidx_eqb cols a b : In a cols -> In b cols -> N.eqb (sidx cols a) (sidx cols b) = str_eqb a b.
Proof.
  induction cols as [|c t IH]; [intros []|]. intros Ha Hb. cbn [sidx].
  destruct (str_eqb a c) eqn:Ea; destruct (str_eqb b c) eqn:Eb.
  - apply str_eqb_eq in Ea, Eb. subst. rewrite str_eqb_refl. reflexivity.
  - apply str_eqb_eq in Ea. subst. rewrite (str_eqb_sym c b), Eb. destruct (sidx t b); reflexivity.
  - apply str_eqb_eq in Eb. subst. rewrite Ea. destruct (sidx t a); reflexivity.
  - rewrite <- IH.
    + apply eq_true_iff_eq. rewrite !N.eqb_eq. lia.
    + destruct Ha as [->|Ha]; [rewrite str_eqb_refl in Ea; discriminate|exact Ha].
    + destruct Hb as [->|Hb]; [rewrite str_eqb_refl in Eb; discriminate|exact Hb].
Qed.

Definition closedp (cols : list str) (p : pair) : Prop := In (fst p) cols /\ In (snd p) cols.

Lemma closed_pairsb_Forall cols l : closed_pairsb cols l = true <-> Forall (closedp cols) l.
Proof.
  unfold closed_pairsb, closedp. rewrite forallb_forall, Forall_forall.
  split; intros H p Hp; specialize (H p Hp); rewrite andb_true_iff, !memb_In in *; exact H.
Qed.

Lemma filter_length_map_ext {A B} (e : A -> bool) (e' : B -> bool) (g : A -> B) l :
  (forall y, In y l -> e' (g y) = e y) -> length (filter e' (map g l)) = length (filter e l).
Proof. intros H. rewrite filter_map_comm, map_length. f_equal. apply filter_ext_in, H. Qed.

Lemma existsb_map_ext {A B} (e : A -> bool) (e' : B -> bool) (g : A -> B) l :
  (forall y, In y l -> e' (g y) = e y) -> existsb e' (map g l) = existsb e l.
Proof.
  induction l as [|x l IH]; intros H; [reflexivity|]. cbn [map existsb].
  rewrite (H x (or_introl eq_refl)), IH; [reflexivity|]. intros y Hy. apply H. now right.
Qed.

Lemma ixp_pair_eqb cols p q : closedp cols p -> closedp cols q -> ipair_eqb (ixp cols p) (ixp cols q) = pair_eqb p q.
Proof. intros [H1 H2] [H3 H4]. unfold ipair_eqb, pair_eqb, ixp. cbn [fst snd]. rewrite !sidx_eqb by assumption. reflexivity. Qed.

Lemma ixp_upair_eqb cols p q : closedp cols p -> closedp cols q -> iupair_eqb (ixp cols p) (ixp cols q) = upair_eqb p q.
Proof.
  intros Hp Hq. unfold iupair_eqb, upair_eqb. rewrite (ixp_pair_eqb cols p q Hp Hq).
  destruct Hp as [H1 H2], Hq as [H3 H4]. unfold ixp. cbn [fst snd]. rewrite !sidx_eqb by assumption. reflexivity.
Qed.

Lemma iucount_map cols p l : closedp cols p -> Forall (closedp cols) l ->
  iucount (ixp cols p) (map (ixp cols) l) = ucount p l.
Proof.
  intros Hp Hl. apply filter_length_map_ext. intros q Hq. rewrite Forall_forall in Hl.
  apply ixp_upair_eqb; [exact Hp|apply Hl, Hq].
Qed.

Lemma iumemb_map cols p l : closedp cols p -> Forall (closedp cols) l ->
  iumemb (ixp cols p) (map (ixp cols) l) = umemb p l.
Proof.
  intros Hp Hl. apply existsb_map_ext. intros q Hq. rewrite Forall_forall in Hl.
  apply ixp_upair_eqb; [exact Hp|apply Hl, Hq].
Qed.

Definition closedr (cols : list str) (r : row) : Prop := closedp cols (rp r).

Lemma ixr_row_eqb cols r r' : closedr cols r -> closedr cols r' -> irow_eqb (ixr cols r) (ixr cols r') = row_eqb r r'.
Proof. intros H H'. unfold irow_eqb, row_eqb, ixr. cbn [fst snd]. rewrite (ixp_pair_eqb cols _ _ H H'). reflexivity. Qed.

Lemma ircount_map cols r rows : closedr cols r -> Forall (closedr cols) rows ->
  ircount (ixr cols r) (map (ixr cols) rows) = rcount r rows.
Proof.
  intros Hr Hl. apply filter_length_map_ext. intros q Hq. rewrite Forall_forall in Hl.
  apply ixr_row_eqb; [exact Hr|apply Hl, Hq].
Qed.

Lemma ixr_swap3 cols r : iswap3 (ixr cols r) = ixr cols (swap3 r).
Proof. destruct r as [[a b] s]. reflexivity. Qed.

Lemma closedr_swap3 cols r : closedr cols r -> closedr cols (swap3 r).
Proof. unfold closedr, closedp. rewrite rp_swap3. unfold swapp. cbn [fst snd]. tauto. Qed.

Lemma forallb_map_comp {A B} (f : B -> bool) (g : A -> B) l : forallb f (map g l) = forallb (fun x => f (g x)) l.
Proof. induction l as [|x l IH]; [reflexivity|]. cbn [map forallb]. rewrite IH. reflexivity. Qed.

Lemma forallb_ext_in' {A} (f g : A -> bool) l : (forall x, In x l -> f x = g x) -> forallb f l = forallb g l.
Proof.
  induction l as [|x l IH]; intros H; [reflexivity|]. cbn [forallb]. rewrite (H x (or_introl eq_refl)), IH; [reflexivity|].
  intros y Hy. apply H. now right.
Qed.

Lemma closedb_pairs cols rows : closedb cols rows = closed_pairsb cols (map rp rows).
Proof. unfold closedb, closed_pairsb. symmetry. apply forallb_map_comp. Qed.

Lemma closedb_Forall cols rows : closedb cols rows = true <-> Forall (closedr cols) rows.
Proof. rewrite closedb_pairs, closed_pairsb_Forall. apply Forall_map. Qed.

(* each sweep of the position-level checker over the encoded rows is the name-level sweep over the rows *)
Section FastRows.
  Variables (cols : list str) (cands : list pair) (rows : list row).
  Hypothesis Hc : Forall (closedp cols) cands.
  Hypothesis Hr : Forall (closedr cols) rows.

  Let Hin : forall r, In r rows -> closedr cols r := proj1 (Forall_forall _ _) Hr.

  Lemma fast_ucount (t : nat -> nat -> bool) :
    forallb (fun r : irow => t (iucount (fst r) (map fst (map (ixr cols) rows))) (iucount (fst r) (map (ixp cols) cands)))
            (map (ixr cols) rows)
    = forallb (fun r => t (ucount (rp r) (map rp rows)) (ucount (rp r) cands)) rows.
  Proof.
    rewrite forallb_map_comp. apply forallb_ext_in'. intros r Hr'. cbn beta.
    replace (map fst (map (ixr cols) rows)) with (map (ixp cols) (map rp rows)) by (rewrite !map_map; reflexivity).
    change (fst (ixr cols r)) with (ixp cols (rp r)).
    rewrite !iucount_map; try reflexivity; try assumption; try (apply Hin, Hr'). apply Forall_map. exact Hr.
  Qed.

  Lemma fast_sym :
    forallb (fun r : irow => Nat.eqb (ircount r (map (ixr cols) rows)) (ircount (iswap3 r) (map (ixr cols) rows))) (map (ixr cols) rows)
    = forallb (fun r => Nat.eqb (rcount r rows) (rcount (swap3 r) rows)) rows.
  Proof.
    rewrite forallb_map_comp. apply forallb_ext_in'. intros r Hr'. cbn beta.
    rewrite ixr_swap3, !ircount_map; try reflexivity; try assumption; [apply closedr_swap3|]; apply Hin, Hr'.
  Qed.

  Lemma fast_even :
    forallb (fun r : irow => negb (N.eqb (fst (fst r)) (snd (fst r))) || Nat.even (ircount r (map (ixr cols) rows))) (map (ixr cols) rows)
    = forallb (fun r => negb (str_eqb (fst (rp r)) (snd (rp r))) || Nat.even (rcount r rows)) rows.
  Proof.
    rewrite forallb_map_comp. apply forallb_ext_in'. intros r Hr'. cbn beta.
    rewrite ircount_map; [|apply Hin, Hr'|exact Hr]. f_equal. f_equal.
    destruct (Hin r Hr') as [H1 H2]. unfold ixr, ixp. cbn [fst snd]. apply sidx_eqb; assumption.
  Qed.
End FastRows.

Theorem rows_okb_fast_eq cols h cands cap' rows : closed_pairsb cols cands = true ->
  rows_okb_fast cols h cands cap' rows = rows_okb cols h cands cap' rows.
Proof.
  intros Hc. unfold rows_okb_fast, rows_okb. rewrite Hc, andb_true_r.
  destruct (closedb cols rows) eqn:Hr; [|reflexivity]. cbn [andb].
  apply closed_pairsb_Forall in Hc. apply closedb_Forall in Hr.
  (* both checkers are the same conjunction; the sweeps differ, and each is one of the lemmas above *)
  destruct (is_const h).
  - f_equal. apply (fast_ucount cols cands rows Hc Hr Nat.leb).
  - f_equal; [f_equal; [f_equal|]|].
    + apply (fast_sym cols rows Hr).
    + apply (fast_even cols rows Hr).
    + apply (fast_ucount cols cands rows Hc Hr (fun a b => Nat.leb a (2 * b))).
Qed.

Theorem cands_okb_fast_eq cols h tro label cands : closed_pairsb cols cands = true ->
  cands_okb_fast cols h tro label cands = cands_okb cols h tro label cands.
Proof.
  intros Hc. unfold cands_okb_fast, cands_okb. rewrite Hc. cbn [andb]. f_equal.
  apply closed_pairsb_Forall in Hc. apply forallb_ext_in'. intros [a b] Hp. apply in_all_pairs in Hp.
  rewrite iumemb_map; [reflexivity| |exact Hc]. exact Hp.
Qed.

Lemma candidates_closedb cols h tro label : In label cols -> closed_pairsb cols (candidates cols h tro label) = true.
Proof.
  intros Hl. apply closed_pairsb_Forall, Forall_forall. intros [a b] Hp. apply (cands_closed cols h tro label Hl a b Hp).
Qed.

Lemma select_run_ok cands cap' nb : forall s, Forall (selected_ok cands cap') (select_run s cands cap' nb).
Proof. induction nb as [|k IH]; intros s; [constructor|]. cbn [select_run]. constructor; [apply select_ok|apply IH]. Qed.

Lemma select_run_length cands cap' nb : forall s, length (select_run s cands cap' nb) = nb.
Proof. induction nb as [|k IH]; intros s; [reflexivity|]. cbn [select_run length]. rewrite IH. reflexivity. Qed.

(* ---------- the reference-model filter ---------- *)
Lemma in_ref_filter refs cands p :
  In p (ref_filter refs cands) <-> In p cands /\ ~ In (fst p) refs /\ ~ In (snd p) refs.
Proof.
  unfold ref_filter. rewrite filter_In, andb_true_iff, !negb_true_iff, !memb_false. tauto.
Qed.

Theorem uin_ref_filter refs cands a b :
  uin (a, b) (ref_filter refs cands) <-> uin (a, b) cands /\ ~ In a refs /\ ~ In b refs.
Proof. unfold uin, swapp. cbn [fst snd]. rewrite !in_ref_filter. cbn [fst snd]. tauto. Qed.

Lemma ref_filter_nil cands : ref_filter [] cands = cands.
Proof. unfold ref_filter. apply filter_all. reflexivity. Qed.

Lemma ref_filter_incl refs cands : incl (ref_filter refs cands) cands.
Proof. intros p H. apply in_ref_filter in H. tauto. Qed.

Lemma closed_pairsb_ref_filter cols refs cands :
  closed_pairsb cols cands = true -> closed_pairsb cols (ref_filter refs cands) = true.
Proof.
  rewrite !closed_pairsb_Forall, !Forall_forall. intros H p Hp. apply H, (ref_filter_incl refs cands), Hp.
Qed.

Lemma ref_names_inactive h ref : (ref = None \/ memb h prior_heurs = false) -> ref_names h ref = [].
Proof. unfold ref_names. intros [->|H]; [reflexivity|]. destruct ref; [rewrite H|]; reflexivity. Qed.

(* one call of mixed_rank_graph under a prior heuristic with a reference model: the candidates touching a reference
   feature are dropped before the cap *)
Definition valid_batch_ref (cols : list str) (h tro label : str) (cap : Z) (refs : list str) (rows : list row) : Prop :=
  exists ev scores, selected_ok (ref_filter refs (candidates cols h tro label)) (eff_cap h cap) ev
                    /\ length scores = length ev /\ rows = build_rows h ev scores.

Lemma valid_batch_is_ref_nil cols h tro label cap rows :
  valid_batch cols h tro label cap rows <-> valid_batch_ref cols h tro label cap [] rows.
Proof. unfold valid_batch, valid_batch_ref. rewrite ref_filter_nil. reflexivity. Qed.

Theorem batch_ref_rows_spec cols h tro label cap refs rows : In label cols ->
  valid_batch_ref cols h tro label cap refs rows ->
  rows_spec cols h (ref_filter refs (candidates cols h tro label)) (eff_cap h cap) rows.
Proof.
  intros Hl [ev [scores [Hs [Hlen ->]]]]. apply build_rows_spec; [|exact Hs|exact Hlen].
  intros a b H. apply (cands_closed cols h tro label Hl a b). apply (ref_filter_incl refs _ _ H).
Qed.

(* evaluated pairs = requested pairs minus those touching a reference feature *)
Theorem batch_ref_requested cols h tro label cap refs rows : In label cols ->
  valid_batch_ref cols h tro label cap refs rows ->
  forall a b s, In (a, b, s) rows ->
    spec_pairb cols h tro label (a, b) = true /\ ~ In a refs /\ ~ In b refs /\ In a cols /\ In b cols.
Proof.
  intros Hl V a b s Hr. pose proof (batch_ref_rows_spec _ _ _ _ _ _ _ Hl V) as S.
  pose proof (rows_spec_requested _ _ _ _ _ S (a, b, s) Hr) as U. unfold rp in U. cbn [fst] in U.
  apply uin_ref_filter in U. destruct U as [U [Ha Hb]]. split; [apply spec_pairb_iff; exact U|].
  split; [exact Ha|]. split; [exact Hb|]. apply (rs_closed _ _ _ _ _ S (a, b, s) Hr).
Qed.

(* ... and nothing is lost but by the cap: when the cap does not bind every remaining requested pair is evaluated *)
Theorem batch_ref_complete cols h tro label cap refs rows :
  (Z.of_nat (length (ref_filter refs (candidates cols h tro label))) <= eff_cap h cap)%Z ->
  valid_batch_ref cols h tro label cap refs rows ->
  forall a b, spec_pairb cols h tro label (a, b) = true -> ~ In a refs -> ~ In b refs ->
    exists s, In (a, b, s) rows \/ In (b, a, s) rows.
Proof.
  intros Hcap [ev [scores [Hs [Hsc ->]]]] a b Hspec Ha Hb.
  pose proof (selected_ok_full _ _ _ Hcap Hs) as HP.
  assert (U : uin (a, b) ev).
  { assert (U0 : uin (a, b) (ref_filter refs (candidates cols h tro label)))
      by (apply uin_ref_filter; split; [apply spec_pairb_iff; exact Hspec|tauto]).
    destruct U0 as [U0|U0]; [left|right]; (eapply Permutation_in; [symmetry; exact HP|exact U0]). }
  destruct U as [U|U]; destruct (build_rows_covers h ev scores _ Hsc U) as [s Hs']; exists s; [left|right]; exact Hs'.
Qed.

(* what an accepted observation satisfies *)
Theorem check_sound c o : In (c_label c) (c_cols c) -> C06_check c o = true ->
  (forall p, uin p (o_cands o) <-> uin p (C06_cands c))
  /\ o_cap o = eff_cap (c_heur c) (c_cap c)
  /\ Forall (rows_spec (c_cols c) (c_heur c) (ref_filter (C06_refs c) (o_cands o)) (o_cap o)) (o_rows o).
Proof.
  intros Hl H. unfold C06_check in H. rewrite !andb_true_iff in H. destruct H as [[H1 H2] H3].
  assert (Hc : closed_pairsb (c_cols c) (o_cands o) = true) by (unfold cands_okb_fast in H1; rewrite !andb_true_iff in H1; tauto).
  rewrite (cands_okb_fast_eq _ _ _ _ _ Hc) in H1.
  split; [apply (cands_okb_iff _ _ _ _ _ Hl); exact H1|]. split; [apply Z.eqb_eq; exact H2|].
  apply Forall_forall. intros rows Hr. rewrite forallb_forall in H3. apply rows_okb_iff.
  rewrite <- (rows_okb_fast_eq _ _ _ _ _ (closed_pairsb_ref_filter _ (C06_refs c) _ Hc)). apply H3, Hr.
Qed.

(* the transcription is accepted by the checker, whatever the scorer answers *)
Theorem model_ok c scores : In (c_label c) (c_cols c) ->
  (forall e s, In (e, s) (combine (select_run [] (ref_filter (C06_refs c) (C06_cands c)) (eff_cap (c_heur c) (c_cap c)) (c_batches c)) scores) ->
               length s = length e) ->
  C06_check c (C06_model c scores) = true.
Proof.
  intros Hl Hs. unfold C06_check, C06_model. cbn [o_cands o_cap o_rows]. rewrite !andb_true_iff.
  pose proof (candidates_closedb _ (c_heur c) (c_tro c) _ Hl) as Hc. split; [split|].
  - unfold C06_cands. rewrite (cands_okb_fast_eq _ _ _ _ _ Hc).
    apply (cands_okb_iff _ _ _ _ _ Hl). intros p. reflexivity.
  - apply Z.eqb_refl.
  - apply forallb_forall. intros rows Hr. apply in_map_iff in Hr. destruct Hr as [[e s] [<- Hes]].
    unfold C06_cands. rewrite (rows_okb_fast_eq _ _ _ _ _ (closed_pairsb_ref_filter _ (C06_refs c) _ Hc)).
    apply rows_okb_iff. cbn [fst snd]. apply build_rows_spec.
    + intros a b H. apply (cands_closed _ (c_heur c) (c_tro c) _ Hl a b). apply (ref_filter_incl _ _ _ H).
    + pose proof (select_run_ok (ref_filter (C06_refs c) (C06_cands c)) (eff_cap (c_heur c) (c_cap c)) (c_batches c) []) as F.
      rewrite Forall_forall in F. apply F. apply in_combine_l in Hes. exact Hes.
    + apply Hs. exact Hes.
Qed.

(* ---------- Constant: each selected combination listed once, score 0, never mirrored ---------- *)
Theorem constant_once cols h tro label cap refs rows : is_const h = true ->
  valid_batch_ref cols h tro label cap refs rows ->
  selected_ok (ref_filter refs (candidates cols h tro label)) (eff_cap h cap) (map rp rows)
  /\ (forall r, In r rows -> snd r = 0%N)
  /\ length rows = slice_len (length (ref_filter refs (candidates cols h tro label))) (eff_cap h cap)
  /\ (NoDup cols -> forall p, ucount p (map rp rows) <= 1).
Proof.
  intros Hk [ev [scores [Hs [Hlen ->]]]]. rewrite (build_rows_const _ _ _ Hk), rp_constant.
  split; [exact Hs|]. split; [|split].
  - intros r Hr. apply in_constant_rows in Hr. destruct Hr as [p [_ ->]]. reflexivity.
  - unfold constant_rows. rewrite map_length. apply Hs.
  - intros Hnd p. pose proof (ucount_selected p _ _ _ Hs) as H1.
    pose proof (ucount_le_1 p _ (once_filter _ _ (cands_once cols h tro label Hnd) : once (ref_filter refs _))). lia.
Qed.

(* ---------- list level: with duplicate-free columns every requested pair is listed exactly once, nothing else is listed ---------- *)
Theorem cands_multiplicity cols h tro label p : NoDup cols ->
  ucount p (candidates cols h tro label) = if spec_pairb cols h tro label p then 1 else 0.
Proof.
  intros Hnd. pose proof (ucount_le_1 p _ (cands_once cols h tro label Hnd)) as Hle.
  destruct (spec_pairb cols h tro label p) eqn:E.
  - apply spec_pairb_iff, ucount_pos_iff in E. lia.
  - apply ucount_zero. intros U. apply spec_pairb_iff in U. congruence.
Qed.

Theorem pairwise_multiplicity cols h tro label a b :
  NoDup cols -> is_3mr h = false -> is_tonly tro = false -> In a cols -> In b cols ->
  ucount (a, b) (candidates cols h tro label) = 1.
Proof.
  intros Hnd H3 Ht Ha Hb. rewrite (cands_multiplicity cols h tro label (a, b) Hnd).
  replace (spec_pairb cols h tro label (a, b)) with true; [reflexivity|]. symmetry.
  apply spec_pairb_iff, (cands_pairwise cols h tro label H3 Ht). tauto.
Qed.

Lemma eff_cap_3mr h cap : is_3mr h = true -> eff_cap h cap = Z.min cap max_features_3mr.
Proof. intros H. unfold eff_cap. rewrite H. destruct (Z.ltb_spec max_features_3mr cap); lia. Qed.

Lemma eff_cap_other h cap : is_3mr h = false -> eff_cap h cap = cap.
Proof. intros H. unfold eff_cap. rewrite H. reflexivity. Qed.

(* sorted(set(all_columns) - set(rel_columns)) is determined by the set, whatever the set's iteration order *)
Theorem non_rel_canonical cols l' :
  StronglySorted str_le l' -> Permutation l' (dedup (filter (fun c => negb (is_rel c)) cols)) ->
  l' = non_rel_columns cols.
Proof.
  intros Hs HP. symmetry. apply sorted_perm_unique.
  - apply sort_str_sorted.
  - exact Hs.
  - unfold non_rel_columns. rewrite sort_str_perm. symmetry. exact HP.
Qed.

(* ---------- the batch-level statements in the words of the property ---------- *)
Theorem batch_mirrored cols h tro label cap rows : is_const h = false ->
  valid_batch cols h tro label cap rows ->
  exists T, selected_ok (candidates cols h tro label) (eff_cap h cap) (map rp T)
    /\ (forall r, In r rows <-> In r T \/ In (swap3 r) T)
    /\ (forall a b s, In (a, b, s) T -> In (a, b, s) rows /\ In (b, a, s) rows)
    /\ (forall r, rcount r rows = rcount r T + rcount (swap3 r) T)
    /\ (forall r, rcount r rows = rcount (swap3 r) rows)
    /\ length rows = 2 * slice_len (length (candidates cols h tro label)) (eff_cap h cap).
Proof.
  intros Hk [ev [scores [Hs [Hlen ->]]]]. rewrite (build_rows_scored _ _ _ Hk). exists (triplets ev scores).
  rewrite (rp_triplets ev scores Hlen). split; [exact Hs|]. split; [intros r; apply in_mirror|]. split; [|split; [|split]].
  - intros a b s H. split; apply in_mirror; [left; exact H|right; exact H].
  - intros r. apply rcount_mirror.
  - intros r. apply rcount_mirror_sym.
  - rewrite length_mirror, (length_triplets _ _ Hlen). destruct Hs as [-> _]. reflexivity.
Qed.

(* without a reference model: the case refs = [] *)
Theorem batch_rows_spec cols h tro label cap rows : In label cols ->
  valid_batch cols h tro label cap rows ->
  rows_spec cols h (candidates cols h tro label) (eff_cap h cap) rows.
Proof.
  intros Hl V. apply valid_batch_is_ref_nil in V. rewrite <- (ref_filter_nil (candidates cols h tro label)).
  exact (batch_ref_rows_spec _ _ _ _ _ _ _ Hl V).
Qed.

Theorem batch_closed cols h tro label cap rows : In label cols ->
  valid_batch cols h tro label cap rows ->
  forall a b s, In (a, b, s) rows -> In a cols /\ In b cols.
Proof.
  intros Hl V a b s Hr. apply valid_batch_is_ref_nil in V. apply (batch_ref_requested _ _ _ _ _ _ _ Hl V a b s Hr).
Qed.

Theorem batch_requested cols h tro label cap rows : In label cols ->
  valid_batch cols h tro label cap rows ->
  forall a b s, In (a, b, s) rows -> spec_pairb cols h tro label (a, b) = true.
Proof.
  intros Hl V a b s Hr. apply valid_batch_is_ref_nil in V. apply (batch_ref_requested _ _ _ _ _ _ _ Hl V a b s Hr).
Qed.

Definition ex_cols : list str :=
  [[98]; [108; 97; 98]; [97]; [97; 32; 65; 78; 68; 95; 82; 69; 76; 32; 98]; [97; 98]]%N.   (* b, lab, a, 'a AND_REL b', ab *)
Definition ex_label : str := [108; 97; 98]%N.
Definition ex_3mr : str := [77; 73; 45; 110; 117; 109; 98; 97; 45; 51; 109; 114]%N.        (* MI-numba-3mr *)
Definition ex_mi : str := [77; 73]%N.
Definition ex_false : str := [70; 97; 108; 115; 101]%N.

Example ex_modes :
  NoDup ex_cols /\ In ex_label ex_cols
  /\ is_3mr ex_3mr = true /\ is_3mr ex_mi = false /\ is_tonly s_True = true /\ is_tonly ex_false = false
  /\ length (candidates ex_cols ex_mi s_True ex_label) = 5
  /\ length (candidates ex_cols ex_mi ex_false ex_label) = 15
  /\ candidates ex_cols ex_3mr s_True ex_label
     = cwr2 [[97]; [97; 98]; [98]; [108; 97; 98]]%N ++ [([97; 32; 65; 78; 68; 95; 82; 69; 76; 32; 98]%N, ex_label)]
  /\ length (candidates ex_cols ex_3mr ex_false ex_label) = 12
  /\ eff_cap ex_3mr 20000 = 10000%Z /\ eff_cap ex_mi 20000 = 20000%Z.
Proof.
  split; [|vm_compute; intuition].
  repeat constructor; cbn; intuition discriminate.
Qed.

Example ex_batch :
  let c := mkCase ex_cols ex_mi ex_false ex_label 4 2 None in
  let o := C06_model c [[5; 6; 7; 8]; [1; 2; 3; 4]]%N in
  C06_check c o = true
  /\ map (@length row) (o_rows o) = [8; 8]
  /\ select_run [] (C06_cands c) 4 2 = [firstn 4 (C06_cands c); firstn 4 (skipn 4 (C06_cands c))]
  /\ C06_check (mkCase ex_cols s_Constant s_True ex_label 3 1 None) (C06_model (mkCase ex_cols s_Constant s_True ex_label 3 1 None) [[]]) = true.
Proof. vm_compute. intuition. Qed.

(* dropping the mirror row, mirroring with another score, or listing a foreign pair is rejected *)
Example ex_rejects :
  let c := mkCase ex_cols ex_mi s_True ex_label 2 1 None in
  let cands := C06_cands c in
  C06_check c (mkObs cands 2 [[([98], ex_label, 5); (ex_label, [98], 5); (ex_label, ex_label, 6); (ex_label, ex_label, 6)]])%N = true
  /\ C06_check c (mkObs cands 2 [[([98], ex_label, 5); (ex_label, ex_label, 6)]])%N = false
  /\ C06_check c (mkObs cands 2 [[([98], ex_label, 5); (ex_label, [98], 7); (ex_label, ex_label, 6); (ex_label, ex_label, 6)]])%N = false
  /\ C06_check c (mkObs cands 2 [[([98], [97], 5); ([97], [98], 5); (ex_label, ex_label, 6); (ex_label, ex_label, 6)]])%N = false.
Proof. vm_compute. intuition. Qed.

(* the reference-model filter: under surrogate-SGD with reference features {'b,a'->'a AND b' (absent), 'ab', 'zz'} every pair
   touching 'ab' disappears (5 of 15), nothing else; under a non-prior heuristic the same file changes nothing *)
Definition ex_sgd : str := [115; 117; 114; 114; 111; 103; 97; 116; 101; 45; 83; 71; 68]%N.
Definition ex_ref : option (list str) := Some [[98; 44; 97]; [97; 98]; [122; 122]]%N.
Example ex_ref_filter :
  norm_ref [98; 44; 97]%N = [97; 32; 65; 78; 68; 32; 98]%N
  /\ split_on 44 [44; 97; 44]%N = [[]; [97]; []]%N
  /\ length (ref_filter (ref_names ex_sgd ex_ref) (candidates ex_cols ex_sgd ex_false ex_label)) = 10
  /\ ref_names ex_mi ex_ref = [] /\ ref_names ex_sgd None = []
  /\ (let c := mkCase ex_cols ex_sgd ex_false ex_label 7 1 ex_ref in
      C06_check c (C06_model c [[1; 2; 3; 4; 5; 6; 7]]%N) = true
      /\ map (@length row) (o_rows (C06_model c [[1; 2; 3; 4; 5; 6; 7]]%N)) = [14]).
Proof. vm_compute. intuition. Qed.
