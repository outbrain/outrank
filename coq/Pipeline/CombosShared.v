(* C06, C09, C10 — the models of these properties each write out "mirror every triplet" and "len(L[:cap])" for
   themselves (Combos.mirror / Pool.mirror, Sampler.slice_len / Interact.cap_len).  The two lemmas here say the copies
   are the same functions; nothing uses them: the file is built so that a drift of one copy breaks the build. *)
From Coq Require Import List ZArith NArith.
From Outrank Require Import Pipeline.Sampler Pipeline.Combos Pipeline.Aggregate Pipeline.Pool Features.Interact.
Import ListNotations.

(* the slice length: Combos uses Sampler.slice_len itself; Interact.cap_len is the same function *)
Lemma cap_len_is_slice_len : forall len cap, Interact.cap_len len cap = Sampler.slice_len len cap.
Proof. reflexivity. Qed.

(* the mirror loop: under any encoding of names (e.g. column positions, E2E's to_agg) and scores into Aggregate rows,
   Combos.mirror and Pool.mirror produce the same rows in the same order *)
Section Mirror.
  Variable g : str -> N.
  Variable sc : score -> Z.
  Definition enc_row (r : Combos.row) : Pool.triplet := ((g (fst (fst r)), g (snd (fst r))), sc (snd r)).

  Lemma mirror_agrees : forall T, map enc_row (Combos.mirror T) = Pool.mirror (map enc_row T).
  Proof.
    induction T as [|t T IH]; [reflexivity|].
    change (Combos.mirror (t :: T)) with (swap3 t :: t :: Combos.mirror T).
    change (map enc_row (t :: T)) with (enc_row t :: map enc_row T).
    change (Pool.mirror (enc_row t :: map enc_row T))
      with (((snd (fst (enc_row t)), fst (fst (enc_row t))), snd (enc_row t)) :: enc_row t :: Pool.mirror (map enc_row T)).
    cbn [map]. rewrite IH. reflexivity.
  Qed.
End Mirror.
