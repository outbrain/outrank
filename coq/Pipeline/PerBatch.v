(* C08 — "the median of its PER-BATCH scores".
   [aggregate] takes the median over all ROWS that carry a pair.  The property speaks of one score per batch.
   The two coincide when every batch that evaluates the pair contributes the same number m > 0 of rows for it, all
   with that batch's score, and differ otherwise ([weighted_median_differs]); Props/C08.v says when the code meets
   the condition. *)
From Coq Require Import List ZArith Arith Bool Lia Permutation Sorting.Sorted.
From Outrank Require Import Common.ListFacts Common.Median Pipeline.Aggregate Pipeline.AggregateProofs.
Import ListNotations.
Local Open Scope nat_scope.

Lemma mrep_length m l : length (mrep m l) = m * length l.
Proof.
  unfold mrep. induction l as [|x l IH]; cbn [flat_map length]; [lia|].
  rewrite app_length, repeat_length, IH. lia.
Qed.

Lemma nth_mrep m l d : 0 < m -> forall i, nth i (mrep m l) d = nth (i / m) l d.
Proof.
  intros Hm. unfold mrep. induction l as [|x l IH]; intros i.
  - cbn. destruct i; destruct (_ / m); reflexivity.
  - cbn [flat_map]. destruct (Nat.lt_ge_cases i m) as [Hi|Hi].
    + rewrite app_nth1 by (rewrite repeat_length; exact Hi). rewrite nth_repeat_lt by exact Hi.
      rewrite Nat.div_small by exact Hi. reflexivity.
    + rewrite app_nth2 by (rewrite repeat_length; exact Hi). rewrite repeat_length, IH.
      assert (E : i / m = S ((i - m) / m)).
      { replace i with ((i - m) + 1 * m) at 1 by lia. rewrite Nat.div_add by lia. lia. }
      rewrite E. reflexivity.
Qed.

Lemma sorted_repeat_app x m l : StronglySorted Z.le l -> Forall (fun y => (x <= y)%Z) l -> StronglySorted Z.le (repeat x m ++ l).
Proof.
  intros Hs Hf. induction m as [|m IH]; cbn [repeat app]; [exact Hs|]. constructor; [exact IH|].
  apply Forall_app. split; [apply Forall_repeat; lia|exact Hf].
Qed.

Lemma mrep_sorted m l : StronglySorted Z.le l -> StronglySorted Z.le (mrep m l).
Proof.
  unfold mrep. induction l as [|x l IH]; intros H; [constructor|]. apply StronglySorted_inv in H. destruct H as [Hs Hf].
  cbn [flat_map]. apply sorted_repeat_app; [apply IH; exact Hs|].
  apply Forall_forall. intros y Hy. apply in_flat_map in Hy. destruct Hy as [z [Hz Hy]].
  apply repeat_spec in Hy. subst y. rewrite Forall_forall in Hf. apply Hf. exact Hz.
Qed.

Lemma sort_mrep m l : sort (mrep m l) = mrep m (sort l).
Proof.
  apply Zsorted_perm_eq; [apply sort_sorted|apply mrep_sorted, sort_sorted|].
  rewrite sort_perm. apply Permutation_flat_map. symmetry. apply sort_perm.
Qed.

Lemma mid_mrep m n : 0 < m -> (m * n - 1) / 2 / m = (n - 1) / 2 /\ m * n / 2 / m = n / 2.
Proof.
  intros Hm. rewrite !Nat.div_div by lia. split.
  - (* n - 1 = 2q + r with r <= 1, so m*n - 1 = (2m)*q + rest with rest <= m*(r+1) - 1 < 2m *)
    set (q := (n - 1) / 2). set (r := (n - 1) mod 2).
    assert (E : n - 1 = 2 * q + r) by apply Nat.div_mod_eq. assert (Hr : r < 2) by (apply Nat.mod_upper_bound; lia).
    symmetry. apply (Nat.div_unique _ _ q (m * n - 1 - 2 * m * q)); nia.
  - rewrite (Nat.mul_comm 2 m). apply Nat.div_mul_cancel_l; lia.
Qed.

Theorem median2_mrep m l : 0 < m -> median2 (mrep m l) = median2 l.
Proof.
  intros Hm. destruct l as [|x r]; [reflexivity|]. set (l := x :: r).
  assert (Hl : l <> []) by discriminate.
  assert (Hml : mrep m l <> []) by (destruct m; [lia|discriminate]).
  rewrite (median2_alt _ Hml), (median2_alt _ Hl), mrep_length, sort_mrep, !(nth_mrep m _ 0%Z Hm).
  destruct (mid_mrep m (length l) Hm) as [-> ->]. reflexivity.
Qed.

Lemma scores_of_concat k brs : scores_of k (concat brs) = concat (map (scores_of k) brs).
Proof. induction brs as [|b r IH]; [reflexivity|]. cbn [concat map]. rewrite scores_of_app, IH. reflexivity. Qed.

Lemma uniform_rows m k brs : 0 < m -> uniform_batches m k brs ->
  scores_of k (concat brs) = mrep m (per_batch_scores k brs).
Proof.
  intros Hm H. rewrite scores_of_concat. unfold per_batch_scores, mrep.
  induction H as [|b r Hb _ IH]; [reflexivity|]. cbn [map concat flat_map]. rewrite flat_map_app, IH. f_equal.
  unfold batch_score. destruct Hb as [E|[z E]]; rewrite E; [reflexivity|].
  destruct m as [|m]; [lia|]. cbn [repeat flat_map]. rewrite app_nil_r. reflexivity.
Qed.

(* the aggregate's score for k is the median of the per-batch scores of k *)
Theorem median_per_batch m k brs : 0 < m -> uniform_batches m k brs ->
  median2 (scores_of k (concat brs)) = median2 (per_batch_scores k brs).
Proof. intros Hm H. rewrite (uniform_rows m k brs Hm H). apply median2_mrep. exact Hm. Qed.

Theorem aggregate_per_batch m k brs : 0 < m -> uniform_batches m k brs -> In k (map fst (concat brs)) ->
  lookup k (aggregate (concat brs)) = Some (median2 (per_batch_scores k brs)).
Proof.
  intros Hm H Hin. rewrite aggregate_lookup. destruct (in_dec key_eq_dec k (map fst (concat brs))) as [_|Hn]; [|contradiction].
  rewrite (median_per_batch m k brs Hm H). reflexivity.
Qed.

(* without the hypothesis the row median is a WEIGHTED median of the per-batch scores *)
Example weighted_median_differs :
  let k := (1%N, 1%N) in
  let brs := [[(k, 1%Z); (k, 1%Z); (k, 1%Z); (k, 1%Z)]; [(k, 5%Z); (k, 5%Z)]; [(k, 9%Z); (k, 9%Z)]] in
  median2 (scores_of k (concat brs)) = 6%Z /\ median2 (per_batch_scores k brs) = 10%Z.
Proof. vm_compute. split; reflexivity. Qed.

Lemma once_scores_gen k b ks : NoDup ks ->
  scores_of k (map (fun k0 => (k0, hd 0%Z (scores_of k0 b))) ks) =
  if in_dec key_eq_dec k ks then [hd 0%Z (scores_of k b)] else [].
Proof.
  induction ks as [|k0 ks IH]; intros Hnd; [reflexivity|]. cbn [map]. rewrite scores_of_cons.
  apply NoDup_cons_iff in Hnd. destruct Hnd as [Hni Hnd]. rewrite (IH Hnd).
  destruct (key_eqb k0 k) eqn:E.
  - apply key_eqb_eq in E. subst k0.
    destruct (in_dec key_eq_dec k ks) as [Hi|_]; [contradiction|].
    destruct (in_dec key_eq_dec k (k :: ks)) as [_|Hn]; [reflexivity|exfalso; apply Hn; now left].
  - destruct (in_dec key_eq_dec k ks) as [Hi|Hn]; destruct (in_dec key_eq_dec k (k0 :: ks)) as [Hi'|Hn']; try reflexivity.
    + exfalso. apply Hn'. now right.
    + destruct Hi' as [->|Hi']; [rewrite key_eqb_refl in E; discriminate|contradiction].
Qed.

(* [batch_once] keeps the first score of every pair of a batch, so over any batches its rows carry exactly the per-batch
   scores ([batch_once_scores_all], no hypothesis).  That these are also the scores [aggregate] sees needs every batch
   to be uniform with one multiplicity ([uniform_batches], the hypothesis of [aggregate_per_batch]); [batch_uniformb]
   checks one score per pair within a batch, not the common multiplicity, and no lemma here connects the two. *)
Lemma batch_once_scores k b : scores_of k (batch_once b) = batch_score k b.
Proof.
  unfold batch_once, batch_score. rewrite (once_scores_gen k b (keys b) (keys_NoDup b)).
  destruct (in_dec key_eq_dec k (keys b)) as [Hi|Hn].
  - apply scores_of_nonempty in Hi. destruct (scores_of k b); [contradiction|reflexivity].
  - destruct (scores_of k b) as [|z l] eqn:Es; [reflexivity|].
    exfalso. apply Hn. apply scores_of_nonempty. rewrite Es. discriminate.
Qed.

(* the rows [C08_check] aggregates for [v_per_batch], one per pair and batch, carry exactly the per-batch scores *)
Theorem batch_once_scores_all k brs :
  scores_of k (concat (map batch_once brs)) = per_batch_scores k brs.
Proof.
  rewrite scores_of_concat, map_map. unfold per_batch_scores.
  induction brs as [|b r IH]; [reflexivity|]. cbn [map concat flat_map]. rewrite IH, batch_once_scores. reflexivity.
Qed.

Lemma batch_uniformb_sound b : batch_uniformb b = true ->
  forall r r', In r b -> In r' b -> fst r = fst r' -> snd r = snd r'.
Proof.
  unfold batch_uniformb. intros H r r' Hr Hr' Ek. rewrite forallb_forall in H. specialize (H r Hr).
  rewrite forallb_forall in H. specialize (H r' Hr'). apply orb_true_iff in H. destruct H as [H|H].
  - apply negb_true_iff in H. rewrite Ek, key_eqb_refl in H. discriminate.
  - apply Z.eqb_eq. exact H.
Qed.
