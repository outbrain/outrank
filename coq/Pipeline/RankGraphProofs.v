(* C05 — category codes are positions in the strictly sorted list of distinct cells (hence injective, order-preserving,
   dense); orientation puts the label second; max-coverage is the largest joint frequency. *)
From Coq Require Import String Ascii.
From Coq Require Import List NArith ZArith QArith Bool Arith Lia Sorted.
From Outrank Require Import Common.ListFacts Pipeline.RankGraph.
Import ListNotations.
Close Scope Q_scope.

Lemma scmp_refl : forall a, scmp a a = Eq.
Proof. induction a as [|x a IH]; simpl; auto. rewrite N.compare_refl. exact IH. Qed.

Lemma scmp_eq : forall a b, scmp a b = Eq -> a = b.
Proof.
  induction a as [|x a IH]; destruct b as [|y b]; simpl; intros H; try discriminate; auto.
  destruct (N.compare_spec x y) as [E|L|G]; try discriminate.
  subst. f_equal. auto.
Qed.

Lemma scmp_antisym : forall a b, scmp b a = CompOpp (scmp a b).
Proof.
  induction a as [|x a IH]; destruct b as [|y b]; simpl; auto.
  rewrite (N.compare_antisym x y).
  destruct (N.compare x y); simpl; auto.
Qed.

Definition slt (a b : str) : Prop := scmp a b = Lt.

Lemma slt_trans : forall a b c, slt a b -> slt b c -> slt a c.
Proof.
  unfold slt.
  induction a as [|x a IH]; destruct b as [|y b]; destruct c as [|z c]; simpl; try discriminate; auto.
  intros H1 H2.
  destruct (N.compare_spec x y) as [E1|L1|G1]; try discriminate;
    destruct (N.compare_spec y z) as [E2|L2|G2]; try discriminate.
  - subst. rewrite N.compare_refl. eauto.
  - subst. rewrite (proj2 (N.compare_lt_iff _ _) L2). reflexivity.
  - subst. rewrite (proj2 (N.compare_lt_iff _ _) L1). reflexivity.
  - assert (L : (x < z)%N) by lia. rewrite (proj2 (N.compare_lt_iff _ _) L). reflexivity.
Qed.

Lemma slt_irrefl : forall a, ~ slt a a.
Proof. unfold slt. intros a H. rewrite scmp_refl in H. discriminate. Qed.

Lemma slt_asym : forall a b, slt a b -> ~ slt b a.
Proof. unfold slt. intros a b H1 H2. rewrite scmp_antisym, H1 in H2. discriminate. Qed.

Lemma seqb_eq : forall a b, seqb a b = true <-> a = b.
Proof.
  unfold seqb. intros a b. split.
  - destruct (scmp a b) eqn:E; try discriminate. intros _. apply scmp_eq. exact E.
  - intros ->. rewrite scmp_refl. reflexivity.
Qed.

Lemma seqb_neq : forall a b, seqb a b = false <-> a <> b.
Proof.
  intros a b. split.
  - intros H E. apply seqb_eq in E. congruence.
  - intros H. destruct (seqb a b) eqn:E; auto. apply seqb_eq in E. contradiction.
Qed.

Lemma smem_in : forall h ls, smem h ls = true <-> In h ls.
Proof. exact (existsb_eqb_In seqb seqb_eq). Qed.

(* ['p' in s] is Python's substring test *)
Lemma sprefix_spec : forall p s, sprefix p s = true <-> exists t, s = p ++ t.
Proof.
  induction p as [|x p IH]; intros s; simpl.
  - split; eauto.
  - destruct s as [|y s].
    + split; [discriminate|]. intros [t H]. discriminate.
    + rewrite andb_true_iff, N.eqb_eq, IH. split.
      * intros [-> [t ->]]. exists t. reflexivity.
      * intros [t H]. injection H as -> ->. split; eauto.
Qed.

Lemma sinfix_spec : forall p s, sinfix p s = true <-> exists u t, s = u ++ p ++ t.
Proof.
  intros p. induction s as [|y s IH]; simpl.
  - rewrite orb_false_r, sprefix_spec. split.
    + intros [t H]. exists [], t. exact H.
    + intros [u [t H]]. destruct u as [|z u]; simpl in H; [eauto|discriminate].
  - rewrite orb_true_iff, sprefix_spec, IH. split.
    + intros [[t H]|[u [t H]]].
      * exists [], t. exact H.
      * exists (y :: u), t. simpl. rewrite H. reflexivity.
    + intros [u [t H]]. destruct u as [|z u]; simpl in H.
      * left. eauto.
      * right. injection H as -> ->. eauto.
Qed.

(* ---- categories: strictly sorted, same elements ------------------------------------------------ *)

Lemma insert_u_in : forall x l y, In y (insert_u x l) <-> y = x \/ In y l.
Proof.
  intros x. induction l as [|z l IH]; intros y; simpl.
  - intuition.
  - destruct (scmp x z) eqn:E; simpl.
    + apply scmp_eq in E. subst. intuition.
    + intuition.
    + rewrite IH. intuition.
Qed.

Lemma insert_u_sorted : forall x l, StronglySorted slt l -> StronglySorted slt (insert_u x l).
Proof.
  intros x. induction l as [|z l IH]; intros S; simpl.
  - constructor; constructor.
  - inversion S as [|? ? S' F]; subst.
    destruct (scmp x z) eqn:E.
    + exact S.
    + constructor; auto. constructor; auto.
      rewrite Forall_forall in *. intros w Hw. eapply slt_trans; [exact E|auto].
    + constructor; auto.
      rewrite Forall_forall in *. intros w Hw. apply insert_u_in in Hw. destruct Hw as [->|Hw]; auto.
      unfold slt. rewrite scmp_antisym, E. reflexivity.
Qed.

Lemma cats_in : forall l x, In x (cats l) <-> In x l.
Proof.
  unfold cats. induction l as [|y l IH]; intros x; simpl.
  - tauto.
  - rewrite insert_u_in, IH. intuition.
Qed.

Lemma cats_sorted : forall l, StronglySorted slt (cats l).
Proof.
  unfold cats. induction l as [|y l IH]; simpl.
  - constructor.
  - apply insert_u_sorted. exact IH.
Qed.

Lemma cats_nodup : forall l, NoDup (cats l).
Proof. intros l. apply (StronglySorted_NoDup slt); [exact slt_irrefl|apply cats_sorted]. Qed.

(* where a member of z :: s sits: at the head, or one past its position in s *)
Lemma index_of_cons_in : forall x z s, In x (z :: s) ->
  (x = z /\ index_of x (z :: s) = 0) \/ (x <> z /\ In x s /\ index_of x (z :: s) = S (index_of x s)).
Proof.
  intros x z s Hin. cbn [index_of]. destruct (seqb x z) eqn:E.
  - left. split; [apply seqb_eq, E|reflexivity].
  - right. apply seqb_neq in E. destruct Hin as [->|Hin]; [congruence|auto].
Qed.

Lemma index_of_nth : forall x s d, In x s -> nth (index_of x s) s d = x.
Proof.
  intros x. induction s as [|z s IH]; intros d Hin; [contradiction|].
  destruct (index_of_cons_in x z s Hin) as [[-> ->]|(_ & Hin' & ->)]; [reflexivity|apply IH, Hin'].
Qed.

Lemma index_of_lt : forall x s, In x s -> index_of x s < length s.
Proof.
  intros x. induction s as [|z s IH]; intros Hin; [contradiction|]. cbn [length].
  destruct (index_of_cons_in x z s Hin) as [[_ ->]|(_ & Hin' & ->)]; [lia|apply IH in Hin'; lia].
Qed.

Lemma index_of_inj : forall x y s, In x s -> In y s -> index_of x s = index_of y s -> x = y.
Proof.
  intros x y s Hx Hy E.
  rewrite <- (index_of_nth x s [] Hx), <- (index_of_nth y s [] Hy), E. reflexivity.
Qed.

Lemma index_of_mono : forall s, StronglySorted slt s -> forall x y, In x s -> In y s ->
  (index_of x s < index_of y s <-> slt x y).
Proof.
  induction s as [|z s IH]; intros S x y Hx Hy; [contradiction|].
  inversion S as [|? ? S' F]; subst. rewrite Forall_forall in F.
  destruct (index_of_cons_in x z s Hx) as [[-> ->]|(_ & Hx' & ->)];
    destruct (index_of_cons_in y z s Hy) as [[-> ->]|(_ & Hy' & ->)].
  - split; [lia|]. intros H. exfalso. exact (slt_irrefl _ H).
  - split; [intros _; apply F, Hy'|lia].
  - split; [lia|]. intros H. exfalso. exact (slt_asym _ _ H (F _ Hx')).
  - rewrite <- (IH S' x y Hx' Hy'). lia.
Qed.

Lemma index_of_nth_sorted : forall s, StronglySorted slt s -> forall k d, k < length s ->
  index_of (nth k s d) s = k.
Proof.
  induction s as [|z s IH]; intros S k d Hk; cbn [length] in Hk; [lia|].
  inversion S as [|? ? S' F]; subst. rewrite Forall_forall in F. destruct k as [|k]; cbn [nth].
  - destruct (index_of_cons_in z z s (or_introl eq_refl)) as [[_ ->]|(Hne & _)]; [reflexivity|congruence].
  - assert (Hin : In (nth k s d) s) by (apply nth_In; lia).
    destruct (index_of_cons_in _ z s (or_intror Hin)) as [[Heq _]|(_ & _ & ->)].
    + exfalso. apply (slt_irrefl z). rewrite <- Heq at 2. apply F, Hin.
    + f_equal. apply IH; [exact S'|lia].
Qed.

Lemma codes_length : forall l, length (codes l) = length l.
Proof. intros l. unfold codes. apply map_length. Qed.

Lemma codes_nth : forall l i, i < length l ->
  nth i (codes l) 0%N = N.of_nat (index_of (nth i l []) (cats l)).
Proof.
  intros l i Hi. unfold codes.
  rewrite (nth_indep _ 0%N (N.of_nat (index_of [] (cats l)))) by (rewrite map_length; exact Hi).
  rewrite (map_nth (fun x => N.of_nat (index_of x (cats l)))). reflexivity.
Qed.

Lemma nth_in_cats : forall l i, i < length l -> In (nth i l []) (cats l).
Proof. intros l i Hi. apply cats_in. apply nth_In. exact Hi. Qed.

(* equal codes <-> equal cells *)
Lemma codes_inj : forall l i j, i < length l -> j < length l ->
  (nth i (codes l) 0%N = nth j (codes l) 0%N <-> nth i l [] = nth j l []).
Proof.
  intros l i j Hi Hj. rewrite !codes_nth by assumption. split.
  - intros H. apply Nat2N.inj in H.
    eapply index_of_inj; eauto using nth_in_cats.
  - intros ->. reflexivity.
Qed.

(* the coding preserves the code-point order of the cells *)
Lemma codes_order : forall l i j, i < length l -> j < length l ->
  ((nth i (codes l) 0 < nth j (codes l) 0)%N <-> scmp (nth i l []) (nth j l []) = Lt).
Proof.
  intros l i j Hi Hj. rewrite !codes_nth by assumption.
  change (scmp (nth i l []) (nth j l []) = Lt) with (slt (nth i l []) (nth j l [])).
  rewrite <- (index_of_mono (cats l) (cats_sorted l) _ _ (nth_in_cats l i Hi) (nth_in_cats l j Hj)).
  lia.
Qed.

(* the codes are exactly 0 .. k-1 with k the number of distinct cells *)
Lemma codes_dense : forall l,
  (forall i, i < length l -> (nth i (codes l) 0 < N.of_nat (length (cats l)))%N) /\
  (forall k, k < length (cats l) -> exists i, i < length l /\ nth i (codes l) 0%N = N.of_nat k).
Proof.
  intros l. split.
  - intros i Hi. rewrite codes_nth by assumption.
    pose proof (index_of_lt _ _ (nth_in_cats l i Hi)). lia.
  - intros k Hk.
    assert (Hin : In (nth k (cats l) []) l) by (apply cats_in, nth_In; exact Hk).
    destruct (In_nth _ _ [] Hin) as [i [Hi E]].
    exists i. split; auto. rewrite codes_nth by assumption. rewrite E.
    rewrite index_of_nth_sorted; auto using cats_sorted.
Qed.

(* Remark (known finding on the implementation side, KNOWN_FINDINGS.txt C05): the MODEL's coding distinguishes cells that
   differ only after a NUL code point -- 'a' = [97], 'a\x00' = [97; 0], 'a\x00b' = [97; 0; 98], '' = [], '\x00' = [0] get five
   different codes, in code-point order -- whereas pandas' category coding hashes str cells as C strings and merges
   'a' / 'a\x00' / 'a\x00b' and '' / '\x00'.  The model is right, the implementation deviates. *)
Example codes_distinguish_nul :
  codes [[97]; [97; 0]; [97; 0; 98]; []; [0]; [97]]%N = [2; 3; 4; 0; 1; 2]%N.
Proof. vm_compute. reflexivity. Qed.

Lemma orient_label : forall lbl a b, a = lbl \/ b = lbl ->
  snd (orient lbl (a, b)) = lbl /\ fst (orient lbl (a, b)) = (if seqb a lbl then b else a).
Proof.
  intros lbl a b H. unfold orient. simpl.
  destruct (seqb a lbl) eqn:E; simpl; auto.
  apply seqb_neq in E. destruct H; [contradiction|auto].
Qed.

Lemma orient_other : forall lbl a b, a <> lbl -> orient lbl (a, b) = (a, b).
Proof.
  intros lbl a b H. unfold orient. simpl. apply seqb_neq in H. rewrite H. reflexivity.
Qed.

Lemma orient_same_columns : forall lbl a b,
  orient lbl (a, b) = (a, b) \/ orient lbl (a, b) = (b, a).
Proof.
  intros lbl a b. unfold orient. simpl. destruct (seqb a lbl) eqn:E; auto.
  apply seqb_eq in E. subst. auto.
Qed.

Section MaxFreqProofs.
  Context {A : Type} (eqb : A -> A -> bool).
  Hypothesis eqb_spec : forall x y, eqb x y = true <-> x = y.

  Lemma cnt_le_length : forall x l, (cnt eqb x l <= N.of_nat (length l))%N.
  Proof. intros x l. unfold cnt. pose proof (filter_length_le (eqb x) l). lia. Qed.

  Lemma cnt_pos : forall x l, In x l -> (1 <= cnt eqb x l)%N.
  Proof.
    intros x l Hin. unfold cnt. assert (0 < length (filter (eqb x) l)); [|lia].
    apply filter_length_pos. exists x. split; [exact Hin|]. apply eqb_spec. reflexivity.
  Qed.

  Lemma cnt_notin : forall x l, ~ In x l -> cnt eqb x l = 0%N.
  Proof.
    intros x l Hn. unfold cnt. destruct (Nat.eq_dec (length (filter (eqb x) l)) 0) as [->|E]; [reflexivity|].
    exfalso. apply Hn. destruct (proj1 (filter_length_pos (eqb x) l)) as [y [Hy Exy]]; [lia|].
    apply eqb_spec in Exy. subst. exact Hy.
  Qed.

  Lemma fold_max_ge : forall (L l : list A) x, In x l ->
    (cnt eqb x L <= fold_right (fun y m => N.max (cnt eqb y L) m) 0 l)%N.
  Proof.
    intros L. induction l as [|y l IH]; intros x Hin; simpl in *.
    - contradiction.
    - destruct Hin as [->|Hin]; [lia|]. specialize (IH x Hin). lia.
  Qed.

  Lemma fold_max_attained : forall (L l : list A), l <> [] ->
    exists x, In x l /\ fold_right (fun y m => N.max (cnt eqb y L) m) 0%N l = cnt eqb x L.
  Proof.
    intros L. induction l as [|y l IH]; intros Hne.
    - congruence.
    - destruct l as [|z l].
      + exists y. split; [left; reflexivity|]. simpl. lia.
      + destruct IH as [x [Hin E]]; [discriminate|].
        change (fold_right (fun y0 m => N.max (cnt eqb y0 L) m) 0%N (y :: z :: l))
          with (N.max (cnt eqb y L) (fold_right (fun y0 m => N.max (cnt eqb y0 L) m) 0%N (z :: l))).
        rewrite E.
        destruct (N.max_spec (cnt eqb y L) (cnt eqb x L)) as [[_ M]|[_ M]]; rewrite M.
        * exists x. split; [right; exact Hin|reflexivity].
        * exists y. split; [left; reflexivity|reflexivity].
  Qed.

  Lemma maxfreq_attained : forall l, l <> [] -> exists x, In x l /\ maxfreq eqb l = cnt eqb x l.
  Proof. intros l H. unfold maxfreq. apply fold_max_attained. exact H. Qed.

  Lemma maxfreq_ge : forall l x, (cnt eqb x l <= maxfreq eqb l)%N.
  Proof.
    intros l x. destruct (existsb (eqb x) l) eqn:E.
    - apply fold_max_ge, (existsb_eqb_In eqb eqb_spec), E.
    - rewrite cnt_notin by apply (existsb_eqb_notin eqb eqb_spec), E. lia.
  Qed.

  Lemma maxfreq_le_length : forall l, (maxfreq eqb l <= N.of_nat (length l))%N.
  Proof.
    intros l. destruct l as [|y l].
    - unfold maxfreq. simpl. lia.
    - destruct (maxfreq_attained (y :: l)) as [x [_ E]]; [discriminate|].
      rewrite E. apply cnt_le_length.
  Qed.

  Lemma maxfreq_pos : forall l, l <> [] -> (1 <= maxfreq eqb l)%N.
  Proof.
    intros l H. destruct (maxfreq_attained l H) as [x [Hin E]]. rewrite E. apply cnt_pos. exact Hin.
  Qed.
End MaxFreqProofs.

Lemma peqb_spec : forall p q, peqb p q = true <-> p = q.
Proof. exact (prod_eqb_eq N.eqb N.eqb N.eqb_eq N.eqb_eq). Qed.

Lemma joint_cnt : forall a b u v, joint a b u v = cnt peqb (u, v) (combine a b).
Proof.
  unfold cnt. induction a as [|x a IH]; intros b u v; simpl.
  - reflexivity.
  - destruct b as [|y b]; simpl.
    + reflexivity.
    + rewrite IH. unfold peqb at 2. simpl.
      rewrite (N.eqb_sym u x), (N.eqb_sym v y).
      destruct (N.eqb x u && N.eqb y v); cbn [Datatypes.length]; lia.
Qed.

(* rationals with a common positive denominator compare by numerator *)
Lemma frac_le : forall c d n, (c <= d)%N -> (frac c n <= frac d n)%Q.
Proof.
  intros c d n H. unfold frac, Qle. simpl. apply Z.mul_le_mono_nonneg_r; lia.
Qed.

Lemma Zpos_of_nat : forall n, n <> 0 -> Zpos (Pos.of_nat n) = Z.of_nat n.
Proof.
  intros n H. rewrite <- positive_nat_Z. rewrite Nat2Pos.id by exact H. reflexivity.
Qed.

Lemma frac_le_1 : forall c n, n <> 0 -> (c <= N.of_nat n)%N -> (frac c n <= 1)%Q.
Proof.
  intros c n Hn H. unfold frac, Qle. simpl. rewrite Zpos_of_nat by exact Hn. lia.
Qed.

Theorem maxcov_exact : forall a b : list N, length a = length b -> a <> [] ->
  (exists u v, In (u, v) (combine a b) /\ maxcov a b = frac (joint a b u v) (length a)) /\
  (forall u v, (frac (joint a b u v) (length a) <= maxcov a b)%Q) /\
  (frac 1 (length a) <= maxcov a b)%Q /\ (maxcov a b <= 1)%Q.
Proof.
  intros a b Hlen Hne.
  assert (Hc : combine a b <> []).
  { destruct a as [|x a]; [congruence|]. destruct b as [|y b]; [discriminate|]. discriminate. }
  assert (Hn : length a <> 0) by (destruct a; [congruence|discriminate]).
  unfold maxcov. repeat split.
  - destruct (maxfreq_attained peqb (combine a b) Hc) as [[u v] [Hin E]].
    exists u, v. split; auto. rewrite joint_cnt, E. reflexivity.
  - intros u v. apply frac_le. rewrite joint_cnt. apply (maxfreq_ge peqb peqb_spec).
  - apply frac_le. apply (maxfreq_pos peqb peqb_spec). exact Hc.
  - apply frac_le_1; auto.
    rewrite <- (combine_length_eq a b Hlen). apply (maxfreq_le_length peqb).
Qed.

(* the bucketed version can only over-count *)
Lemma cnt_map_ge : forall (ps : list (N * N)) p,
  (cnt peqb p ps <= cnt Z.eqb (hash_pair p) (map hash_pair ps))%N.
Proof.
  intros ps p. unfold cnt.
  assert (H : length (filter (peqb p) ps) <= length (filter (Z.eqb (hash_pair p)) (map hash_pair ps))).
  { induction ps as [|q ps IH]; simpl; auto.
    destruct (peqb p q) eqn:E.
    - apply peqb_spec in E. subst. rewrite Z.eqb_refl. simpl. lia.
    - destruct (Z.eqb (hash_pair p) (hash_pair q)); simpl; lia. }
  lia.
Qed.

Theorem maxcov_old_ge : forall a b, (maxcov a b <= maxcov_old a b)%Q.
Proof.
  intros a b. unfold maxcov, maxcov_old. apply frac_le.
  destruct (combine a b) as [|p ps] eqn:Ec.
  - unfold maxfreq. simpl. lia.
  - destruct (maxfreq_attained peqb (p :: ps)) as [x [Hin E]]; [discriminate|].
    rewrite E. eapply N.le_trans; [apply cnt_map_ge|].
    apply (maxfreq_ge Z.eqb Z.eqb_eq).
Qed.

Theorem maxcov_prefix_refuted :
  exists a b, length a = length b /\ (maxcov_old a b == 1)%Q /\ (maxcov a b == 1 # 2)%Q /\ ~ (maxcov_old a b == maxcov a b)%Q.
Proof.
  exists [0; 17]%N, [0; 12831]%N. vm_compute. repeat split; intros H; discriminate H.
Qed.

Section RowsProofs.
  Context {score : Type} (sc : list N -> list N -> score).

  Lemma rank_rows_spec : forall f lbl pairs row, In row (rank_rows sc f lbl pairs) ->
    exists a b, In (a, b) pairs /\
      (row = (a, b, eval_pair sc f lbl (a, b)) \/ row = (b, a, eval_pair sc f lbl (a, b))) /\
      eval_pair sc f lbl (a, b)
        = sc (codes (col f (fst (orient lbl (a, b))))) (codes (col f (snd (orient lbl (a, b))))) /\
      (a = lbl \/ b = lbl -> snd (orient lbl (a, b)) = lbl).
  Proof.
    intros f lbl pairs row Hin. unfold rank_rows in Hin. apply in_flat_map in Hin.
    destruct Hin as [[a b] [Hp Hr]]. exists a, b. split; auto. simpl in Hr. split.
    - destruct Hr as [<-|[<-|[]]]; auto.
    - split; [reflexivity|]. intros H. apply (orient_label lbl a b H).
  Qed.

  Lemma rank_rows_complete : forall f lbl pairs a b, In (a, b) pairs ->
    In (a, b, eval_pair sc f lbl (a, b)) (rank_rows sc f lbl pairs) /\
    In (b, a, eval_pair sc f lbl (a, b)) (rank_rows sc f lbl pairs).
  Proof.
    intros f lbl pairs a b Hin. unfold rank_rows.
    split; apply in_flat_map; exists (a, b); (split; [exact Hin|simpl; auto]).
  Qed.
End RowsProofs.
