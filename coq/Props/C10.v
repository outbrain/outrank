(* C10 — interaction features represent joint values faithfully.
   Only statements here; each is closed by [exact] of a lemma of Features/InteractProofs.v or
   Features/InteractMI.v, or of a term that applies or pairs such lemmas.
   [enc t] is the string the repaired compute_combined_features hashes for the value tuple [t] of one row
   (str(len(v)) + ":" + v per constituent, concatenated); [h] stands for xxh64(utf8(.)).hexdigest() and is
   universally quantified; [combined h sep df sel] is the returned frame for the combinations [sel] the sampler kept. *)
From Coq Require Import List NArith ZArith Arith.
From Outrank Require Import Features.Interact Features.InteractProofs Features.InteractMI.
From Outrank Require MI.Model.
Import ListNotations.

(* the encoding is injective on value tuples of arbitrary strings; no arity hypothesis is needed *)
Theorem C10_enc_inj : forall t t' : list str, enc t = enc t' -> t = t'.
Proof. exact enc_inj. Qed.

(* equal value <-> equal tuples, up to collisions of the hash: here "the two hashed strings do not collide".
   (The hypotheses below are never global injectivity of h, which no 16-hex-digit digest can satisfy.) *)
Theorem C10_equal_iff : forall (h : str -> cell) t t', inj_on h [enc t; enc t'] ->
  (h (enc t) = h (enc t') <-> t = t').
Proof. exact equal_iff. Qed.

(* rows that agree on every constituent get equal values, for any hash *)
Theorem C10_equal_if : forall (h : str -> cell) t t', t = t' -> h (enc t) = h (enc t').
Proof. exact equal_if. Qed.

(* the feature is named by joining the constituent names with the separator (" AND ") *)
Theorem C10_name : forall h sep df comb, fst (combine_feature h sep df comb) = join sep comb.
Proof. exact name_is_join. Qed.

(* the original columns are left untouched: the result is the input followed by new columns, one value per row *)
Theorem C10_originals_untouched : forall h sep df sel,
  firstn (length df) (combined h sep df sel) = df /\
  Forall (fun c : column => length (snd c) = nrows df) (skipn (length df) (combined h sep df sel)).
Proof. exact (fun h sep df sel => appends_firstn _ _ (combined_appends h sep df sel)). Qed.

(* every new column is the feature of a selected combination; the new names are the joined selected combinations *)
Theorem C10_new_columns : forall h sep df sel,
  (forall c, In c (skipn (length df) (combined h sep df sel)) -> exists comb, In comb sel /\ c = combine_feature h sep df comb) /\
  (forall nm, In nm (names (skipn (length df) (combined h sep df sel))) <-> In nm (map (join sep) sel)).
Proof. exact (fun h sep df sel => conj (combined_new h sep df sel) (combined_names h sep df sel)). Qed.

(* [no_collision h df comb] := inj_on h (map enc (tuples df comb)): no collision among the strings hashed for this frame
   and combination.  [incl comb (names df)]: the combination names columns of the frame (the code raises KeyError otherwise;
   C10_candidates gives it for every candidate); the statements carry it, no proof needs it. *)

Theorem C10_rows_iff : forall (h : str -> cell) df comb i j,
  incl comb (names df) -> no_collision h df comb -> i < nrows df -> j < nrows df ->
  (nth_error (feature_values h df comb) i = nth_error (feature_values h df comb) j
   <-> forall f, In f comb -> nth i (getcol df f) [] = nth j (getcol df f) []).
Proof. exact (fun h df comb i j _ => rows_iff h df comb i j). Qed.

(* the new column induces the same partition of the rows as the explicit value tuples ... *)
Theorem C10_score : forall (h : str -> cell) df comb,
  incl comb (names df) -> no_collision h df comb -> same_part (feature_values h df comb) (tuples df comb).
Proof. exact (fun h df comb _ => feature_partition h df comb). Qed.

(* ... and a scorer that depends only on the partition gives the coded column the score of the coded value tuples
   (the two coded columns induce one partition, by the injectivity behind C10_score) ... *)
Theorem C10_score_equal : forall (h : str -> cell) S (score : list N -> list N -> S) (cH : cell -> N) (cT : list cell -> N) df comb T,
  incl comb (names df) -> no_collision h df comb ->
  partition_invariant score ->
  inj_on cH (feature_values h df comb) -> inj_on cT (tuples df comb) ->
  score (map cH (feature_values h df comb)) T = score (map cT (tuples df comb)) T.
Proof. exact (fun h S score cH cT df comb T _ => score_equal h score cH cT df comb T). Qed.

(* ... as does the MI family, whose columns are coded in Z (not an instance of the statement above): the numba estimator transcribed in MI/Model.v ([core]; c = cardinality correction on/off;
   T = coded target), for any category codings injective on the occurring values.  Proved from C02's relabelling theorem
   (MI/Proofs.core_relabel_X); this one theorem lives over R and reports the four standard Reals axioms. *)
Theorem C10_score_MI : forall (h : str -> cell) (cH : cell -> Z) (cT : list cell -> Z) df comb (T : list Z) (c : bool),
  incl comb (names df) -> no_collision h df comb ->
  length T = nrows df -> 0 < nrows df ->
  inj_on cH (feature_values h df comb) -> inj_on cT (tuples df comb) ->
  MI.Model.eval_R (MI.Model.core T (map cH (feature_values h df comb)) c)
  = MI.Model.eval_R (MI.Model.core T (map cT (tuples df comb)) c).
Proof. exact (fun h cH cT df comb T c _ => score_MI h cH cT df comb T c). Qed.

(* the no-collision hypothesis is satisfiable on every frame *)
Theorem C10_no_collision_satisfiable : forall df comb, no_collision (fun x => x) df comb.
Proof. exact no_collision_id. Qed.

(* the encoding before fix 3978e4d (plain concatenation) aliases ("1","11") with ("11","1"), for every hash *)
Theorem C10_prefix_refuted : forall h : str -> cell,
  exists t t', t <> t' /\ length t = length t' /\ h (enc_old t) = h (enc_old t').
Proof. exact old_aliases. Qed.

(* dropping the ':' after the length (seeded change C10-G) is refuted too: ("0","AAAAAAAA3xyz") / ("12AAAAAAAA","xyz") *)
Theorem C10_nosep_refuted : forall h : str -> cell,
  exists t t', t <> t' /\ length t = length t' /\ h (enc_nosep t) = h (enc_nosep t').
Proof. exact nosep_aliases. Qed.

Theorem C10_old_partition_refuted : forall h : str -> cell,
  ~ same_part (feature_values_old h witness_frame [[97%N]; [98%N]]) (tuples witness_frame [[97%N]; [98%N]]).
Proof. exact old_partition_refuted. Qed.

(* candidates: combinations of the requested order over the non-label columns *)
Theorem C10_candidates : forall df label io is3mr c, In c (candidates df label io is3mr) ->
  length c = (if is3mr then 2 else io) /\ (forall f, In f c -> In f (names df) /\ f <> label).
Proof. exact candidates_spec. Qed.

(* the checker the harness evaluates on the implementation's output is sound (and the partition test complete) *)
Theorem C10_checker_sound : forall sep df label io is3mr cap obs_prefix obs_new,
  C10_check sep df label io is3mr cap obs_prefix obs_new = true ->
  obs_prefix = df /\
  length obs_new = cap_len (length (candidates df label io is3mr)) cap /\
  NoDup (map fst obs_new) /\
  forall nm ids, In (nm, ids) obs_new ->
    exists comb, In comb (candidates df label io is3mr) /\ nm = join sep comb /\ same_part ids (tuples df comb).
Proof. exact C10_check_sound. Qed.

Theorem C10_partition_test_exact : forall (xs : list N) (ys : list (list str)),
  same_partb N.eqb (list_eqb streqb) xs ys = true <-> same_part xs ys.
Proof. exact partition_test_exact. Qed.

Print Assumptions C10_enc_inj.
Print Assumptions C10_equal_iff.
Print Assumptions C10_equal_if.
Print Assumptions C10_name.
Print Assumptions C10_originals_untouched.
Print Assumptions C10_new_columns.
Print Assumptions C10_rows_iff.
Print Assumptions C10_score.
Print Assumptions C10_score_equal.
Print Assumptions C10_score_MI.
Print Assumptions C10_no_collision_satisfiable.
Print Assumptions C10_prefix_refuted.
Print Assumptions C10_nosep_refuted.
Print Assumptions C10_old_partition_refuted.
Print Assumptions C10_candidates.
Print Assumptions C10_checker_sound.
Print Assumptions C10_partition_test_exact.
