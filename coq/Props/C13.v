(* C13 — data-quality statistics are exact and independent of the batch split.
   Only statements here; each is closed by [exact] of a lemma of Stats/QualityProofs.v.
   Model (Stats/Quality.v): a history is a list of mini-batches, a batch a list of rows, a row a list
   of cells; [column j b] is input_dataframe[column].values.  Per batch the code
   inserts the SET of truthy values of each column into that column's sketch ([card]: the warm phase, [None] =
   converted; [card_hll]: C14's model of the real sketch, both phases), every cell into the bounded counter
   ([counter], [hist]), every
   (column, value) cell into the rare-value machine ([rare]; sweep at the end of the batch), and
   records the coverage percentage ([cov_batch]).  [hash] (v |-> internal_hash(str(v))) is an arbitrary function.
   Cells ([val]): a Python str [V s], or what pandas stores for a cell the parser left as None (ob-vw:
   absent namespace): [NaN] when the batch's column also holds strings, [PyNone] when the whole column of
   the batch is None ([frame_raw]), or a number of the enriched frame [Num s nz] (its str() and whether it is
   non-zero).  As in the code: nan/None are never missing-value symbols and the
   coverage denominator is the row count; the sketch takes truthy values ('' and None are skipped, nan is
   hashed as 'nan'); counter and rare-value machine treat nan and None as two further keys.  All theorems
   below hold for arbitrary frame contents.  Parsed rows: through the pipeline absent fields are filled with ''
   ([frame_batch], fix 2ffc0d7) and every history is split independent (C13_split_indep_parsed); for direct calls on
   pandas' own frame ([frame_raw]) it needs None-free histories (C13_split_indep_direct) and fails otherwise
   (C13_none_cells_refuted: function-level / pre-fix pipeline behaviour). *)
From Coq Require Import List ZArith QArith Permutation.
From Outrank Require Import Stats.Quality Stats.QualityProofs.
From Outrank Require Sketch.HLL Sketch.Bounded.
Import ListNotations.
Local Open Scope Z_scope.

(* cardinality, stored counts / repetition histogram and the rare-value report are functions of the
   concatenation of the batches: any two splits of the same rows agree (the report as a set of
   ((column, value), count) entries: dict order is not part of the observable) *)
Theorem C13_split_indep : forall (hash : val -> N) cap edges bound thr ncols (s1 s2 : list batch),
  0 <= cap -> concat s1 = concat s2 ->
  (forall j, card hash cap j s1 = card hash cap j s2) /\
  (forall j, counter bound j s1 = counter bound j s2 /\ hist edges bound j s1 = hist edges bound j s2) /\
  Permutation (rare thr ncols s1) (rare thr ncols s2) /\
  (forall k, get key_eq_dec (rare thr ncols s1) k = get key_eq_dec (rare thr ncols s2) k).
Proof. exact split_indep. Qed.

(* ... in particular for every composition of the row count *)
Theorem C13_compositions : forall (hash : val -> N) cap edges bound thr ncols (rows : list row) sz1 sz2,
  0 <= cap -> list_sum sz1 = length rows -> list_sum sz2 = length rows ->
  (forall j, card hash cap j (cut sz1 rows) = card hash cap j (cut sz2 rows)) /\
  (forall j, hist edges bound j (cut sz1 rows) = hist edges bound j (cut sz2 rows)) /\
  Permutation (rare thr ncols (cut sz1 rows)) (rare thr ncols (cut sz2 rows)).
Proof. exact compositions_agree. Qed.

(* whatever each batch feeds the sketch — its set of values in any order, or the values with
   repetitions — the reported cardinality is [card_spec] of the whole column: the number of distinct
   hashes of its non-empty cells, as long as that is at most the warm-up capacity *)
Theorem C13_card_any_insertion : forall (hash : val -> N) cap (inss : list (list N)) (cols : list (list val)),
  0 <= cap ->
  Forall2 (fun ins col => forall h, In h ins <-> In h (map hash (filter truthy col))) inss cols ->
  sk_len (sk_run cap inss) = card_spec hash cap (concat cols).
Proof. exact card_any_order. Qed.

Theorem C13_card_function_of_rows : forall (hash : val -> N) cap j (bs : list batch), 0 <= cap ->
  card hash cap j bs = card_spec hash cap (column j (concat bs)).
Proof. exact card_is_spec. Qed.

(* hash injective on the non-empty values that occur, at most [cap] of them: the annotation is the
   exact number of distinct non-empty values (the empty string is the only value left out; other
   missing-value markers count as values, as in the code) *)
Theorem C13_card_exact : forall (hash : val -> N) cap j (bs : list batch), 0 <= cap ->
  let col := column j (concat bs) in
  (forall u v, In u col -> In v col -> truthy u = true -> truthy v = true -> hash u = hash v -> u = v) ->
  Z.of_nat (distinct_truthy col) <= cap ->
  card hash cap j bs = Some (distinct_truthy col).
Proof. exact card_exact. Qed.

(* The repetition histogram, ANY bound and ANY column: the counter holds the exact counts of the prefix of
   the concatenated column up to and including the arrival of the bound-th distinct value ([eff_prefix]; afterwards every
   add is dropped, also for stored keys), and the histogram is the exact histogram of that prefix — a function of the
   concatenation, hence independent of the split (C13_split_indep) *)
Theorem C13_hist_general : forall edges bound j (bs : list batch),
  hist edges bound j bs = hist_general edges bound (column j (concat bs)).
Proof. exact hist_is_general. Qed.

Theorem C13_counter_general : forall bound j (bs : list batch) v,
  get val_eq_dec (counter bound j bs) v = cnt val_eq_dec (eff_prefix bound [] (column j (concat bs))) v.
Proof. exact counter_get_general. Qed.

(* what the counted prefix is: a prefix; if something is left out then bound distinct values are stored; every counted
   cell arrived while fewer than bound distinct values were stored; the whole column when distinct < bound *)
Theorem C13_counted_prefix : forall bound col,
  let pre := eff_prefix bound [] col in
  (exists rest, col = pre ++ rest /\
                (rest <> [] -> bound <= Z.of_nat (length (nodup val_eq_dec pre)))) /\
  (forall q x t, pre = q ++ x :: t -> Z.of_nat (length (nodup val_eq_dec q)) < bound) /\
  (Z.of_nat (length (nodup val_eq_dec col)) < bound -> pre = col).
Proof. exact eff_prefix_spec. Qed.

(* corollary below the bound (empty string / markers included among the distinct values): every stored count is exact
   and bucket x is #{v | count v > x} over ALL consumed rows *)
Theorem C13_counter_exact : forall bound j (bs : list batch) v,
  let col := column j (concat bs) in
  Z.of_nat (length (nodup val_eq_dec col)) < bound ->
  get val_eq_dec (counter bound j bs) v = cnt val_eq_dec col v.
Proof. exact counter_exact. Qed.

Theorem C13_hist_spec : forall edges bound j (bs : list batch),
  let col := column j (concat bs) in
  Z.of_nat (length (nodup val_eq_dec col)) < bound ->
  hist edges bound j bs = hist_spec edges col.
Proof. exact hist_is_spec. Qed.

(* PARTIAL: the property's "equals an exact recomputation over the consumed rows" for the histogram is proved only under
   distinct < bound (default bound 30000).  Full statement:  forall edges bound j bs, hist edges bound j bs = hist_spec
   edges (column j (concat bs)).  It is false beyond the bound (C13_hist_all_rows_refuted: counts freeze); what holds for
   every column is C13_hist_general. *)
Theorem C13_hist_all_rows_partial : forall edges bound j (bs : list batch),
  Z.of_nat (length (nodup val_eq_dec (column j (concat bs)))) < bound ->
  hist edges bound j bs = hist_spec edges (column j (concat bs)).
Proof. exact hist_is_spec. Qed.

Theorem C13_hist_all_rows_refuted :
  exists (bound : Z) (bs : list batch),
    hist [0; 1] bound 0 bs = [2; 0] /\ hist_spec [0; 1] (column 0 (concat bs)) = [3; 1] /\
    hist_general [0; 1] bound (column 0 (concat bs)) = [2; 0] /\
    eff_prefix bound [] (column 0 (concat bs)) = [V [97%N]; V [98%N]].
Proof. exact hist_all_rows_refuted. Qed.

(* The models of the real sketch (C14, Sketch/HLL.v) and of the real counter (C15, Sketch/Bounded.v).
   The warm-phase sketch of Stats/Quality.v is HLL.add with the registers forgotten; [card] is the exact-phase view of the
   length of the real sketch; the counter of Stats/Quality.v, keys renamed by an injective id assignment, is C15's crun *)
Theorem C13_sketch_bridge : forall p W width h2 t v,
  abs_sketch (HLL.add p W width h2 t v) = sk_add (Z.of_nat W) (abs_sketch t) v.
Proof. exact abs_add. Qed.

Theorem C13_card_bridge : forall p W width h2 (hash : val -> N) j (bs : list batch),
  card hash (Z.of_nat W) j bs = len_view (card_hll p W width h2 hash j bs).
Proof. exact card_bridge. Qed.

Theorem C13_counter_bridge : forall (enc : val -> N) univ,
  (forall a b, In a univ -> In b univ -> enc a = enc b -> a = b) ->
  forall bound j (bs : list batch), incl (column j (concat bs)) univ ->
  mapk enc (counter bound j bs) = Bounded.crun bound (map enc (column j (concat bs))).
Proof. exact counter_bridge. Qed.

(* cardinality in BOTH phases (after the conversion too): whatever each batch inserts — its set of truthy values in any
   order, or with repetitions — the union over the batches is the set of the concatenated column, so by C14's len_set
   the length of the real sketch is that of the sketch fed once with the whole column; hence split independent *)
Theorem C13_card_any_insertion_both_phases : forall p W width h2 (hash : val -> N) (inss : list (list N)) (cols : list (list val)),
  Forall2 (fun ins col => forall h, In h ins <-> In h (map hash (filter truthy col))) inss cols ->
  HLL.len (HLL.run p W width h2 (concat inss)) = card_hll_spec p W width h2 hash (concat cols).
Proof. exact card_hll_any_order. Qed.

Theorem C13_card_split_indep_cold : forall p W width h2 (hash : val -> N) j (s1 s2 : list batch),
  concat s1 = concat s2 ->
  card_hll p W width h2 hash j s1 = card_hll p W width h2 hash j s2.
Proof. exact card_hll_split_indep. Qed.

(* the report is exactly {((col, v), total) | 1 <= total <= thr}, for every threshold, with
   [total] counted over all consumed rows; a pair is retired exactly when its total exceeds thr *)
Theorem C13_rare_spec : forall thr ncols (bs : list batch),
  NoDup (map fst (rare thr ncols bs)) /\
  (forall k c, In (k, c) (rare thr ncols bs) <-> c = total ncols (concat bs) k /\ 0 < c /\ c <= thr) /\
  (forall k, get key_eq_dec (rare thr ncols bs) k =
             if thr <? total ncols (concat bs) k then 0 else total ncols (concat bs) k) /\
  (forall k, In k (snd (rv_run thr ncols bs)) <-> 0 < total ncols (concat bs) k /\ thr < total ncols (concat bs) k).
Proof. exact rare_spec. Qed.

(* the boolean checker the harness evaluates on the implementation's report *)
Theorem C13_rare_checker_sound : forall thr ncols rows rep, rare_checkb thr ncols rows rep = true ->
  NoDup (map fst rep) /\ (forall k c, In (k, c) rep <-> c = total ncols rows k /\ 0 < c /\ c <= thr).
Proof. exact rare_checkb_sound. Qed.

Theorem C13_rare_model_ok : forall thr ncols (bs : list batch),
  rare_checkb thr ncols (concat bs) (rare thr ncols bs) = true.
Proof. exact rare_checkb_model. Qed.

(* coverage of one batch: the sum over the symbol set of list.count is the number of cells holding a
   symbol, and the percentage is 100 (n - missing) / n *)
Theorem C13_missing_cells : forall syms col, miss_count syms col = missing_cells syms col.
Proof. exact miss_count_spec. Qed.

Theorem C13_coverage : forall syms col, col <> [] ->
  (cov_batch syms col * inject_Z (Z.of_nat (length col)) ==
   inject_Z (100 * (Z.of_nat (length col) - missing_cells syms col)))%Q /\
  (0 <= cov_batch syms col <= 100)%Q.
Proof. exact cov_batch_full. Qed.

(* int(round(mean, 1)) with ties to even:  a  <->  a - 0.05 <= mean < a + 0.95 *)
Theorem C13_coverage_annotation : forall covs a, (0 <= qmean covs)%Q ->
  (cov_annot covs = a <->
   (inject_Z a - (1 # 20) <= qmean covs)%Q /\ (qmean covs < inject_Z a + (19 # 20))%Q).
Proof. exact cov_annot_spec. Qed.

Theorem C13_mean_nonneg : forall l, Forall (fun c => 0 <= c)%Q l -> (0 <= qmean l)%Q.
Proof. exact qmean_nonneg. Qed.

(* args.missing_value_symbols.split(',') *)
Theorem C13_symbols_split : forall c s,
  join c (split_on c s) = s /\ Forall (fun p => ~ In c p) (split_on c s).
Proof. exact split_on_spec. Qed.

(* PARSED rows (cells = option str; None = a field absent from the line, e.g. a VW namespace).
   Through the pipeline (compute_batch_ranking, fix 2ffc0d7) every batch frame is pd.DataFrame(rows).fillna(''):
   [frame_batch] maps None to the empty string cell by cell, so the frames of a history concatenate to the filled
   table and the statistics of EVERY history of parsed rows — None cells included — depend on the concatenation only *)
Theorem C13_frames_fill : forall s : list (list rrow), concat (frames s) = fill (concat s).
Proof. exact frames_fill. Qed.

Theorem C13_split_indep_parsed : forall (hash : val -> N) cap edges bound thr ncols (s1 s2 : list (list rrow)),
  0 <= cap -> concat s1 = concat s2 ->
  (forall j, card hash cap j (frames s1) = card hash cap j (frames s2)) /\
  (forall j, counter bound j (frames s1) = counter bound j (frames s2) /\
             hist edges bound j (frames s1) = hist edges bound j (frames s2)) /\
  Permutation (rare thr ncols (frames s1)) (rare thr ncols (frames s2)) /\
  (forall k, get key_eq_dec (rare thr ncols (frames s1)) k = get key_eq_dec (rare thr ncols (frames s2)) k).
Proof. exact parsed_split_indep. Qed.

Theorem C13_parsed_card : forall (hash : val -> N) cap j (s : list (list rrow)), 0 <= cap ->
  card hash cap j (frames s) = card_spec hash cap (column j (fill (concat s))).
Proof. exact parsed_card. Qed.

(* DIRECT calls of the statistics functions on pd.DataFrame(rows) (= the pipeline before fix 2ffc0d7): [frame_raw]
   is pandas' frame, nan next to strings, None in an all-None batch column.  Without None cells it is the table of the
   cells' strings and split independence holds; with None cells it fails (C13_none_cells_refuted) *)
Theorem C13_frame_none_free : forall b : list rrow, none_free b = true -> frame_raw b = lift b.
Proof. exact frame_none_free. Qed.

Theorem C13_split_indep_direct : forall (hash : val -> N) cap edges bound thr ncols (s1 s2 : list (list rrow)),
  0 <= cap -> Forall (fun b => none_free b = true) s1 -> Forall (fun b => none_free b = true) s2 ->
  concat s1 = concat s2 ->
  (forall j, card hash cap j (frames_raw s1) = card hash cap j (frames_raw s2)) /\
  (forall j, counter bound j (frames_raw s1) = counter bound j (frames_raw s2) /\
             hist edges bound j (frames_raw s1) = hist edges bound j (frames_raw s2)) /\
  Permutation (rare thr ncols (frames_raw s1)) (rare thr ncols (frames_raw s2)) /\
  (forall k, get key_eq_dec (rare thr ncols (frames_raw s1)) k = get key_eq_dec (rare thr ncols (frames_raw s2)) k).
Proof. exact raw_split_indep. Qed.

(* with None cells the faithful model is NOT split independent (rows None, a, None in one batch, as
   singletons, cut 1 | 2): cardinality 2 / 1, histogram [2;1] / [3;0], different rare tables *)
Theorem C13_none_cells_refuted :
  exists (hash : val -> N) (s1 s2 s3 : list (list rrow)),
    concat s1 = concat s2 /\ concat s1 = concat s3 /\
    card hash 262144 0 (frames_raw s1) = Some 2%nat /\ card hash 262144 0 (frames_raw s2) = Some 1%nat /\
    hist [0; 1] 30000 0 (frames_raw s1) = [2; 1] /\ hist [0; 1] 30000 0 (frames_raw s3) = [3; 0] /\
    rare 1 1 (frames_raw s1) = [((0%nat, V [97%N]), 1)] /\
    rare 1 1 (frames_raw s3) = [((0%nat, PyNone), 1); ((0%nat, V [97%N]), 1); ((0%nat, NaN), 1)].
Proof. exact none_cells_refuted. Qed.

(* before fix 549e068 split independence and the report specification fail *)
Theorem C13_prefix_refuted :
  exists (thr : Z) (s1 s2 : list batch) (k : key),
    concat s1 = concat s2 /\
    total 1 (concat s1) k = 4 /\ thr = 2 /\
    get key_eq_dec (rare_old thr 1 s1) k = 1 /\
    get key_eq_dec (rare_old thr 1 s2) k = 0 /\
    get key_eq_dec (rare thr 1 s1) k = 0.
Proof. exact rare_old_refuted. Qed.

Print Assumptions C13_split_indep.
Print Assumptions C13_compositions.
Print Assumptions C13_card_any_insertion.
Print Assumptions C13_card_function_of_rows.
Print Assumptions C13_card_exact.
Print Assumptions C13_counter_exact.
Print Assumptions C13_hist_spec.
Print Assumptions C13_rare_spec.
Print Assumptions C13_rare_checker_sound.
Print Assumptions C13_rare_model_ok.
Print Assumptions C13_missing_cells.
Print Assumptions C13_coverage.
Print Assumptions C13_coverage_annotation.
Print Assumptions C13_mean_nonneg.
Print Assumptions C13_symbols_split.
Print Assumptions C13_prefix_refuted.
Print Assumptions C13_frame_none_free.
Print Assumptions C13_split_indep_direct.
Print Assumptions C13_frames_fill.
Print Assumptions C13_split_indep_parsed.
Print Assumptions C13_parsed_card.
Print Assumptions C13_none_cells_refuted.
Print Assumptions C13_hist_general.
Print Assumptions C13_counter_general.
Print Assumptions C13_counted_prefix.
Print Assumptions C13_hist_all_rows_partial.
Print Assumptions C13_hist_all_rows_refuted.
Print Assumptions C13_sketch_bridge.
Print Assumptions C13_card_bridge.
Print Assumptions C13_counter_bridge.
Print Assumptions C13_card_any_insertion_both_phases.
Print Assumptions C13_card_split_indep_cold.
