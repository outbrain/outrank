(* C09 — results independent of worker count and scheduling, and reproducible.
   Only statements here; each is an instance of a lemma (or a pair of lemmas) of Pipeline/PoolProofs.v /
   AggregateProofs.v.

   Vocabulary (Pipeline/Pool.v; [final_table] is Pipeline/Aggregate.v's): [amap f tasks sched] = what results.get() returns after the completion events
   [sched] (task indices in completion order; results are stored by task index), None while some task has not
   completed; [interleave ws sched] = sched is an interleaving of the workers' sequences ws; [assignment n ws] =
   every task index below n is owned by exactly one worker; [collect_unordered] = results in completion order;
   [mirror] = the (B, A, s), (A, B, s) doubling of mixed_rank_graph; [final_table] = sorted median aggregate.
   The run-level vocabulary ([batch], [valid_sched], [rows_serial], [rows_ordered], [rows_unordered]) is defined in
   Pipeline/PoolProofs.v.

   HONEST READING.  [C09_schedule], [C09_schedule_any], [C09_not_ready], [C09_pool_size] hold BY CONSTRUCTION of the pool
   model: [complete] writes [f (nth tasks i)] into slot i and [f] is a pure Gallina function, so they say "filling every
   slot fills every slot", for any order / worker count.  They do not prove anything about pathos; they STATE THE CONTRACT
   (results by task index, nothing before the last completion) that the harness pool objects are held to on every
   recorded call ([C09_schedule_check_sound]) and under which the real code is then run.  The risk the property names -
   a scheduling-dependent pairing of results with combinations - is excluded by assumption in the model and is TESTED by
   the harness (adversarial pools, real pools of 1..16 workers, fresh processes).  The theorems with content are
   [C09_unordered_same] / [C09_unordered_same_final] (the aggregate is a function of the multiset of triplets: names travel
   inside each triplet, the median is a function of the multiset) and their run-level corollaries.  "Identical across
   fresh runs" has no theorem: in the model the table is a function of its inputs; hash seeds, process state and time
   are outside it.  Level: proof (aggregation) + test (pool, reproducibility).

   PARTIAL with respect to the property text: the operating-system scheduler, pathos/multiprocess/dill and the purity
   of the per-pair scorer are not modelled (the scorer is a Gallina function [f]); the harness tests them. *)
From Coq Require Import List Arith NArith ZArith Bool Permutation.
From Outrank Require Import Pipeline.Aggregate Pipeline.AggregateProofs Pipeline.Pool Pipeline.PoolProofs.
Import ListNotations.
Local Open Scope nat_scope.

(* [contract, true by construction of the model] any completion order: once every task has completed (in whatever
   order), the collected results are map f tasks *)
Theorem C09_schedule : forall (T R : Type) (f : T -> R) tasks sched,
  Permutation sched (seq 0 (length tasks)) -> amap f tasks sched = Some (map f tasks).
Proof. exact @amap_schedule. Qed.

(* ... even if some completions are reported twice or refer to no task *)
Theorem C09_schedule_any : forall (T R : Type) (f : T -> R) tasks sched,
  (forall j, j < length tasks -> In j sched) -> collect f tasks sched = map (fun t => Some (f t)) tasks.
Proof. exact @collect_complete. Qed.

(* ... and nothing is returned before the last task completed *)
Theorem C09_not_ready : forall (T R : Type) (f : T -> R) tasks sched j,
  j < length tasks -> ~ In j sched -> amap f tasks sched = None.
Proof. exact @amap_not_ready. Qed.

(* [contract, true by construction; w and w' only name the lengths] any two pool sizes w, w', any assignment of the
   tasks to the workers, any interleaving of the workers *)
Theorem C09_pool_size : forall (T R : Type) (f : T -> R) tasks (w w' : nat) ws ws' s s',
  length ws = w -> length ws' = w' ->
  assignment (length tasks) ws -> assignment (length tasks) ws' ->
  interleave ws s -> interleave ws' s' ->
  amap f tasks s = Some (map f tasks) /\ amap f tasks s' = Some (map f tasks).
Proof.
  exact (fun T R f tasks _ _ ws ws' s s' _ _ Ha Ha' Hi Hi' =>
           conj (amap_interleave f tasks ws s Ha Hi) (amap_interleave f tasks ws' s' Ha' Hi')).
Qed.

Theorem C09_interleave_perm : forall (A : Type) (ws : list (list A)) s, interleave ws s -> Permutation s (concat ws).
Proof. exact @interleave_perm. Qed.

(* the hypotheses are satisfiable for every w, chunk size and task count: chunks dealt round-robin *)
Theorem C09_split_assignment : forall w c n,
  assignment n (split_workers w c n) /\ length (split_workers w c n) = Nat.max 1 w.
Proof. exact (fun w c n => conj (split_workers_assignment w c n) (split_workers_length w c n)). Qed.

(* the aggregate table is a function of the multiset of triplets: names travel inside each triplet and the median
   is a function of the multiset of a pair's scores *)
Theorem C09_unordered_same : forall rows rows', Permutation rows rows' -> aggregate rows = aggregate rows'.
Proof. exact aggregate_perm. Qed.
Theorem C09_unordered_same_final : forall rows rows', Permutation rows rows' -> final_table rows = final_table rows'.
Proof. exact final_table_perm. Qed.

(* a collection in completion order yields a permutation of the serial results *)
Theorem C09_unordered_collection : forall (T R : Type) (f : T -> R) tasks sched,
  Permutation sched (seq 0 (length tasks)) -> Permutation (collect_unordered f tasks sched) (map f tasks).
Proof. exact @unordered_perm. Qed.

(* a whole run (one scorer, combination list and schedule per batch): with the order-preserving map every batch
   yields exactly the serial rows; with a completion-ordered collection the final table is still the serial one *)
Theorem C09_run_ordered : forall (T : Type) (bs : list (@batch T)) ss,
  Forall2 valid_sched bs ss -> rows_ordered bs ss = map Some (rows_serial bs).
Proof. exact @run_ordered. Qed.
Theorem C09_run_unordered : forall (T : Type) (bs : list (@batch T)) ss,
  Forall2 valid_sched bs ss -> final_table (concat (rows_unordered bs ss)) = final_table (concat (rows_serial bs)).
Proof. exact @run_unordered_table. Qed.
Theorem C09_run_schedule_independent : forall (T : Type) (bs : list (@batch T)) ss ss',
  Forall2 valid_sched bs ss -> Forall2 valid_sched bs ss' ->
  rows_ordered bs ss = rows_ordered bs ss' /\
  final_table (concat (rows_unordered bs ss)) = final_table (concat (rows_unordered bs ss')).
Proof. exact @run_schedule_independent. Qed.

(* the checkers run on recorded schedules / recorded rows are sound *)
Theorem C09_schedule_check_sound : forall n ws sched, schedule_okb n ws sched = true ->
  assignment n ws /\ interleave ws sched /\ Permutation sched (seq 0 n).
Proof. exact schedule_okb_sound. Qed.
Theorem C09_multiset_check_sound : forall rowsA rowsB,
  same_multisetb rowsA rowsB = true -> final_table rowsA = final_table rowsB.
Proof. exact same_multiset_same_table. Qed.

Print Assumptions C09_schedule.
Print Assumptions C09_schedule_any.
Print Assumptions C09_not_ready.
Print Assumptions C09_pool_size.
Print Assumptions C09_interleave_perm.
Print Assumptions C09_split_assignment.
Print Assumptions C09_unordered_same.
Print Assumptions C09_unordered_same_final.
Print Assumptions C09_unordered_collection.
Print Assumptions C09_run_ordered.
Print Assumptions C09_run_unordered.
Print Assumptions C09_run_schedule_independent.
Print Assumptions C09_schedule_check_sound.
Print Assumptions C09_multiset_check_sound.
