(* C20 — derived synthetic structure (correlation, duplicates, combinations, labels, noise, down-sampling,
   self-description) is as declared.  Only statements here; each is closed by [exact] of a lemma of
   Synth/Corr.v (over R) or Synth/DerivedProofs.v (combinatorial, axiom-free).
   Models: Synth/Derived.v (transcription of cc_generator.py; RNG / argsort / sklearn.resample are answer-stream
   oracles whose assumed behaviour the model checks on every answer; [Ok] = the call returns, [Raises] = the real
   call raises, [BadOracle] = an answer violates the assumed library behaviour or the call pattern). *)
From Coq Require Import List ZArith QArith Qround Reals Permutation Sorting.Sorted.
From Outrank Require Import Synth.Corr Synth.Derived Synth.DerivedProofs.
Import ListNotations.

(* u = Y[:,0], v = Y[:,1] of the code: centred, unit norm, orthogonal; the source is a positive affine image of u.
   Then the generated feature v + cot(acos r) u has Pearson correlation exactly r with the source. *)
Theorem C20_corr : forall n, (0 < n)%nat -> forall (u v : vec) (r a b : R),
  vsum n u = 0%R -> vsum n v = 0%R -> dot n u u = 1%R -> dot n v v = 1%R -> dot n u v = 0%R ->
  (-1 < r < 1)%R -> (0 < a)%R ->
  pearson n (fun i => v i + cos (acos r) / sin (acos r) * u i)%R (fun i => a * u i + b)%R = r.
Proof. exact corr_cot. Qed.

(* the code's spelling 1 / tan(theta), for r <> 0 (at r = 0 numpy's tan(pi/2) is 1.6e16, i.e. the factor is 6e-17) *)
Theorem C20_corr_tan : forall n, (0 < n)%nat -> forall (u v : vec) (r a b : R),
  vsum n u = 0%R -> vsum n v = 0%R -> dot n u u = 1%R -> dot n v v = 1%R -> dot n u v = 0%R ->
  (-1 < r < 1)%R -> r <> 0%R -> (0 < a)%R ->
  pearson n (fun i => v i + 1 / tan (acos r) * u i)%R (fun i => a * u i + b)%R = r.
Proof. exact corr_tan. Qed.

(* the whole construction of generate_correlated over R (standardisation with any regulariser kappa > 0, centring,
   one-column QR, orthogonal projection, normalisation): for a non-constant source and a random vector that is not an
   affine function of it, the feature has correlation exactly r with the source *)
Theorem C20_corr_construction : forall n, (0 < n)%nat -> forall (src z : vec) (kappa r : R),
  (0 < kappa)%R -> (-1 < r < 1)%R ->
  (0 < dot n (m0 n src kappa) (m0 n src kappa))%R ->
  (0 < dot n (proj n src z kappa) (proj n src z kappa))%R ->
  pearson n (corr_feature n src z kappa r) src = r.
Proof. exact construction. Qed.

Open Scope Z_scope.

(* added columns are exact copies of the selected ones, existing columns are kept *)
Theorem C20_dup : forall X idx X' fi di, gen_duplicates X idx = Some (X', (fi, di)) ->
  X' = map (fun row => row ++ select row idx) X /\
  forall row, In row X ->
    lenZ row = ncols X /\
    (forall j, 0 <= j < ncols X -> nthZ (row ++ select row idx) j = nthZ row j) /\
    (forall t, (t < length idx)%nat ->
       nthZ (row ++ select row idx) (ncols X + Z.of_nat t) = nthZ row (norm_idx (ncols X) (nth t idx 0)) /\
       0 <= norm_idx (ncols X) (nth t idx 0) < ncols X).
Proof. exact dup_spec. Qed.

(* the self-description lists exactly ncols .. ncols + k - 1 (fix 40bb872) *)
Theorem C20_dup_info : forall X idx X' fi di, gen_duplicates X idx = Some (X', (fi, di)) ->
  fi = idx /\ di = zrange (ncols X) (length idx) /\ length di = length idx /\ NoDup di /\
  (forall c, In c di <-> ncols X <= c < ncols X + lenZ idx) /\
  (X <> [] -> ncols X' = ncols X + lenZ idx).
Proof. exact dup_info. Qed.

(* the old arange(ncols, ncols + k - 1): two columns added, one listed *)
Theorem C20_dup_prefix_refuted : exists X idx X' fi di,
  gen_duplicates_old X idx = Some (X', (fi, di)) /\ ncols X' = ncols X + 2 /\ di = [ncols X] /\ ~ In (ncols X + 1) di.
Proof. exact dup_prefix_refuted. Qed.

(* the appended cell is the stated function (comb_val: sum for 'linear', the argument of sin for 'nonlinear',
   left fold of xor / and / or for the class's bitwise helpers) of the selected cells; recorded index = old ncols *)
Theorem C20_combo : forall X f idx X' fi ct ix, gen_combinations X f idx = Some (X', (fi, ct, ix)) ->
  fi = idx /\ ct = f /\ ix = ncols X /\
  Forall2 (fun row row' => exists v, comb_val f (select row idx) = Some v /\ row' = row ++ [v] /\
                                      nthZ row' (ncols X) = v /\ forall j, 0 <= j < ncols X -> nthZ row' j = nthZ row j) X X'.
Proof. exact combo_spec. Qed.

Theorem C20_corr_info : forall nc idx, idx <> [] ->
  length (corr_indices nc idx) = length idx /\ NoDup (corr_indices nc idx) /\
  forall c, In c (corr_indices nc idx) <-> nc <= c < nc + lenZ idx.
Proof. exact corr_indices_spec. Qed.

(* the self-description over any session of calls lists exactly the added columns *)
Theorem C20_info_exact : forall nr nc ops, Forall corr_ok ops ->
  st_nc (session nr nc ops) = nc + zsum (map added ops) /\
  Permutation (listed (st_info (session nr nc ops))) (zrange nc (Z.to_nat (st_nc (session nr nc ops) - nc))).
Proof. exact info_exact. Qed.

(* one call of a history, on an input matrix with nc columns and any previous self-description: the call lists
   exactly the columns nc .. nc + added - 1 in addition to what was listed before *)
Theorem C20_info_call : forall s o, corr_ok o ->
  st_nc (step false s o) = st_nc s + added o /\
  Permutation (listed (st_info (step false s o))) (listed (st_info s) ++ zrange (st_nc s) (Z.to_nat (added o))).
Proof. exact step_listed. Qed.

Theorem C20_info_old_refuted : exists nr nc ops, Forall corr_ok ops /\
  st_nc (session_old nr nc ops) = nc + 2 /\ listed (st_info (session_old nr nc ops)) = [nc] /\
  ~ In (nc + 1) (listed (st_info (session_old nr nc ops))).
Proof. exact info_old_refuted. Qed.

(* monotone step function of the decision value *)
Theorem C20_labels_mono : forall d cuts i j, (i < length d)%nat -> (j < length d)%nat ->
  nth i d 0 <= nth j d 0 -> nth i (labels_of d cuts) 0 <= nth j (labels_of d cuts) 0.
Proof. exact labels_mono. Qed.

(* y_i = #{cut points < d_i}, strict comparison *)
Theorem C20_labels_count : forall d cuts,
  labels_of d cuts = map (label cuts) d /\
  (forall x, label cuts x = lenZ (filter (fun c => qlt_bool c (inject_Z x)) cuts)) /\
  (forall c x, qlt_bool c x = true <-> (c < x)%Q) /\
  (forall x, 0 <= label cuts x <= lenZ cuts) /\
  (forall a b, a <= b -> label cuts a <= label cuts b).
Proof. exact labels_count. Qed.

(* exact-arithmetic specification: tie-free decision values, cut = linear-interpolated percentile q (np.percentile default
   method, computed over the rationals): #{d <= cut} = floor((N-1) q) + 1 *)
Theorem C20_labels_prop : forall d q, NoDup d -> d <> [] -> (0 <= q)%Q -> (q <= 1)%Q ->
  lenZ (filter (fun x => Qle_bool (inject_Z x) (percentile (sort d) q)) d) = Qfloor (inject_Z (lenZ d - 1) * q) + 1.
Proof. exact labels_prop. Qed.

(* what generate_labels returns (np.percentile as an ORACLE: the recorded percent list and cut points, exact rationals of
   the doubles, within the library contract checked by the model).  PARTIAL with respect to the property's wording: the
   code computes percents and virtual indices in doubles, so the count per cut point is floor((N-1) pc/100) + 1 only when the
   virtual index is not within 1e-9 of an integer, and within one element of it always ([count_near]); the recorded percents
   are within 1e-9 of the requested cumulative proportions.  [separated d]: tie-free up to double rounding (distinct decision
   values differ by more than 1e-15 relative; automatic for integer decision values below 5e14). *)
Theorem C20_labels_class_sizes_partial : forall honour d n p rperc rcuts y,
  gen_labels_o honour d n p rperc rcuts = Ok y -> NoDup d -> separated d ->
  exists req rp rc, requested_percents honour n p = Some req /\
    rp = used_part (length req) rperc /\ rc = used_part (length req) rcuts /\
    y = map (label rc) d /\
    Forall2 (fun a b => qclose a b = true) rp req /\
    Forall2 (fun pc c => count_near (lenZ d) pc (lenZ (filter (fun x => Qle_bool (inject_Z x) c) d))) rp rc /\
    (qsortedb req = true -> StronglySorted Qle rc).
Proof. exact gen_labels_o_spec. Qed.

(* cumulative form for the code: non-decreasing requested percents: classes 0..m hold floor((N-1) pc_m/100) + 1 items, give or
   take one when the virtual index is within 1e-9 of an integer *)
Theorem C20_labels_cumulative_partial : forall honour d n p rperc rcuts y,
  gen_labels_o honour d n p rperc rcuts = Ok y -> NoDup d -> separated d ->
  exists req rp, requested_percents honour n p = Some req /\ Forall2 (fun a b => qclose a b = true) rp req /\
    (qsortedb req = true -> forall m, (m < length rp)%nat ->
       count_near (lenZ d) (nth m rp 0%Q) (lenZ (filter (fun yi => yi <=? Z.of_nat m) y))).
Proof. exact gen_labels_o_cumulative. Qed.

(* "class proportions match the requested distribution", literally.  Exact linear-interpolated percentile: within 1/N *)
Theorem C20_labels_proportion : forall d q, NoDup d -> d <> [] -> (0 <= q)%Q -> (q <= 1)%Q ->
  let cnt := lenZ (filter (fun x => Qle_bool (inject_Z x) (percentile (sort d) q)) d) in
  (q - 1 / inject_Z (lenZ d) <= inject_Z cnt / inject_Z (lenZ d))%Q /\
  (inject_Z cnt / inject_Z (lenZ d) <= q + 1 / inject_Z (lenZ d))%Q.
Proof. exact labels_proportion. Qed.

(* ... and for the code (any count the oracle contract admits): within 2/N of the percent np.percentile was asked for *)
Theorem C20_labels_proportion_partial : forall N pc cnt, 1 <= N -> (0 <= pc)%Q -> (pc <= 100)%Q -> count_near N pc cnt ->
  (pc / 100 - 2 / inject_Z N <= inject_Z cnt / inject_Z N)%Q /\ (inject_Z cnt / inject_Z N <= pc / 100 + 2 / inject_Z N)%Q.
Proof. exact count_near_proportion. Qed.

(* exact-arithmetic specification (what np.percentile computes over the rationals; equals the code whenever the double
   computation is exact, e.g. dyadic proportions): tie-free decision values, non-decreasing cut percents pcs in [0, 100]:
   classes 0..m together hold exactly floor((N-1) pcs_m / 100) + 1 items *)
Theorem C20_labels_cumulative : forall d pcs m, NoDup d -> d <> [] ->
  Forall (fun pc => (0 <= pc)%Q /\ (pc <= 100)%Q) pcs -> StronglySorted Qle pcs -> (m < length pcs)%nat ->
  lenZ (filter (fun yi => yi <=? Z.of_nat m) (labels_of d (cut_points d pcs)))
  = Qfloor (inject_Z (lenZ d - 1) * (nth m pcs 0%Q / 100)) + 1.
Proof. exact labels_cumulative. Qed.

(* fix b9eb3ad: a class distribution given as a sequence with n > 2 is honoured (cumulative sums of the requested proportions) *)
Theorem C20_labels_ndarray_note : forall n ps,
  2 < n -> lenZ ps = n -> Qle_bool (qsum ps) 1 = true ->
  forallb (fun pc => Qle_bool 0 pc && Qle_bool pc 100) (prefix_sums 0%Q (map (fun x => (x * 100)%Q) (firstn (Z.to_nat (n - 1)) ps))) = true ->
  label_percents n (PList ps) = Some (prefix_sums 0%Q (map (fun x => (x * 100)%Q) (firstn (Z.to_nat (n - 1)) ps))).
Proof. exact label_percents_list. Qed.

(* the validator used when np.percentile is not observed: accepted labels are monotone in the decision value *)
Theorem C20_labels_valid_sound : forall d req y, labels_valid d req y = true ->
  length y = length d /\
  forall a b, In a (combine d y) -> In b (combine d y) -> fst a <= fst b -> snd a <= snd b.
Proof. exact labels_valid_mono. Qed.

(* Noise; matrices are column-major here, one list per feature.
   The number of cells the code flips is int(n * p) computed in DOUBLES; its value k is an oracle answer (the size asked of
   np.random.choice).  [kflip_spec n p k]: k is floor(n p), except that a product within 1e-9 of an integer may round to the
   other side (then |k - floor(n p)| <= 1); k = floor(n p) whenever p has at most 20 fractional bits or n p is not within
   1e-9 of an integer.  [cum] selects the slice variant of unique_per_label: true = the code (cumulative offsets, fix 501d3c0), the only variant the
   check accepts; false = the slices of the code before that fix, for C20_noise_slices_prefix_refuted. *)

(* categorical: per feature, same length, at most k cells differ, every cell is one of that feature's own values;
   for EVERY answer stream on which the model succeeds *)
Theorem C20_noise_cat : forall cum cols y p k inds st out,
  Forall (fun c => lenZ c = lenZ y) cols ->
  noise_cat cum cols y p k inds st = Ok out ->
  Forall2 (fun c o => length o = length c /\ diff_count c o <= k /\ forall v, In v o -> In v c) cols out /\
  kflip_spec (lenZ y) p k.
Proof. exact noise_cat_spec. Qed.

Theorem C20_noise_cat_check_sound : forall cols n p k out, noise_cat_check cols n p k out = true ->
  Forall2 (fun c o => length o = length c /\ diff_count c o <= k /\ forall v, In v o -> In v c) cols out /\
  kflip_spec n p k.
Proof. exact noise_cat_check_sound. Qed.

(* the clause is not vacuous: labels exactly 0..K-1 (K >= 2), admissible noise level, and - for the slices before fix 501d3c0 -
   at least two members per class: the call does not raise, whatever the RNG answers *)
Theorem C20_noise_cat_progress : forall cum cols y p k inds st K,
  uniq y = zrange 0 K -> (2 <= K)%nat -> p_ok (lenZ y) p = true ->
  (cum = false -> forall lab, In lab (uniq y) -> 2 <= countZ lab y) ->
  noise_cat cum cols y p k inds st <> Raises.
Proof. exact noise_cat_progress. Qed.

(* fix 501d3c0: under the slices before the fix the input X=[[0],[4],[2],[1]], y=[0,0,1,0], p=0.25 raises (recorded run of the
   old code); under the repaired slices the recorded run of the current code is reproduced *)
Theorem C20_noise_slices_prefix_refuted :
  noise_cat false [[0; 4; 2; 1]] [0; 0; 1; 0] (1 # 4) 1 [0; 1; 3; 2] [AIdx 4 [1]; AInt 1 0] = Raises /\
  noise_cat true [[0; 4; 2; 1]] [0; 0; 1; 0] (1 # 4) 1 [0; 1; 3; 2] [AIdx 4 [1]; AVal 2] = Ok [[0; 2; 2; 1]].
Proof. exact noise_slices_prefix_refuted. Qed.

(* missing: every cell is unchanged or the marker; exactly k markers per feature when the marker is not already present *)
Theorem C20_noise_missing : forall cols n p k marker st out,
  Forall (fun c => lenZ c = n) cols ->
  noise_missing cols n p k marker st = Ok out ->
  Forall2 (fun c o => Forall2 (fun a b => b = a \/ b = marker) c o /\ (~ In marker c -> countZ marker o = k)) cols out /\
  kflip_spec n p k.
Proof. exact noise_missing_spec. Qed.

Theorem C20_noise_missing_check_sound : forall cols n p k marker out, noise_missing_check cols n p k marker out = true ->
  Forall2 (fun c o => Forall2 (fun a b => b = a \/ b = marker) c o /\ (~ In marker c -> countZ marker o = k)) cols out /\
  kflip_spec n p k.
Proof. exact noise_missing_check_sound. Qed.

Theorem C20_noise_count : forall n p k, kflip_ok n p k = true ->
  nflip n p - 1 <= k <= nflip n p + 1 /\
  (let g := (inject_Z n * p - inject_Z (nflip n p))%Q in
   small_dyadic n p = true \/ ((eps9 <= g)%Q /\ (g <= 1 - eps9)%Q) -> k = nflip n p).
Proof. exact kflip_ok_spec. Qed.

(* stated precondition: labels must be 0..k-1 (here {1,2}: the real call raises KeyError, and so does the model) *)
Theorem C20_noise_cat_needs_standard_labels : forall cum,
  noise_cat cum [[1; 4; 7; 0; 3; 9]; [20; 50; 80; 10; 30; 90]] [1; 2; 1; 2; 2; 1] (1 # 2) 3 [0; 2; 5; 1; 3; 4] [AIdx 6 [5; 2; 4]] = Raises.
Proof. exact noise_cat_needs_standard_labels. Qed.

(* exactly k rows of each class (k = n or the minority count), every returned (row, label) is a (row, label) of the input *)
Theorem C20_downsample : forall X y n reshuffle st Xd yd,
  downsample X y n reshuffle st = Ok (Xd, yd) ->
  exists k, down_n y n = Some k /\ 0 <= k /\
    (length Xd = length yd /\
     (forall lab, In lab (uniq y) -> countZ lab yd = k) /\
     (forall lab, In lab yd -> In lab y) /\
     Forall (fun ry => In ry (combine X y)) (combine Xd yd)) /\
    lenZ Xd = k * lenZ (uniq y).
Proof. exact downsample_spec. Qed.

Theorem C20_downsample_check_sound : forall X y n Xd yd, downsample_check X y n Xd yd = true ->
  exists k, down_n y n = Some k /\
    (length Xd = length yd /\
     (forall lab, In lab (uniq y) -> countZ lab yd = k) /\
     (forall lab, In lab yd -> In lab y) /\
     Forall (fun ry => In ry (combine X y)) (combine Xd yd)).
Proof. exact downsample_check_sound. Qed.

Print Assumptions C20_corr.
Print Assumptions C20_corr_tan.
Print Assumptions C20_corr_construction.
Print Assumptions C20_dup.
Print Assumptions C20_dup_info.
Print Assumptions C20_dup_prefix_refuted.
Print Assumptions C20_combo.
Print Assumptions C20_corr_info.
Print Assumptions C20_info_exact.
Print Assumptions C20_info_call.
Print Assumptions C20_info_old_refuted.
Print Assumptions C20_labels_mono.
Print Assumptions C20_labels_count.
Print Assumptions C20_labels_prop.
Print Assumptions C20_labels_class_sizes_partial.
Print Assumptions C20_labels_cumulative_partial.
Print Assumptions C20_labels_proportion.
Print Assumptions C20_labels_proportion_partial.
Print Assumptions C20_labels_cumulative.
Print Assumptions C20_labels_ndarray_note.
Print Assumptions C20_labels_valid_sound.
Print Assumptions C20_noise_cat.
Print Assumptions C20_noise_cat_check_sound.
Print Assumptions C20_noise_cat_progress.
Print Assumptions C20_noise_slices_prefix_refuted.
Print Assumptions C20_noise_missing.
Print Assumptions C20_noise_missing_check_sound.
Print Assumptions C20_noise_count.
Print Assumptions C20_noise_cat_needs_standard_labels.
Print Assumptions C20_downsample.
Print Assumptions C20_downsample_check_sound.
