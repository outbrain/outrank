(* C11 — feature construction is additive, row-aligned and follows its stated rule.
   Only statements here; each is closed by [exact] of a lemma of Features/ConstructProofs.v / InteractProofs.v.
   A frame is a list of (name, cells) in column order, a row is a position (RangeIndex);
   [appends df out] = "out is df followed by new columns with one value per row of df", equivalently
   [firstn (length df) out = df] and every later column has [nrows df] cells (C11_appends_firstn).
   A constructor returns [None] where the real function raises on a configuration naming a missing column. *)
From Coq Require Import List NArith ZArith Arith.
From Outrank Require Import Features.Interact Features.InteractProofs Features.Construct Features.ConstructProofs.
Import ListNotations.

Theorem C11_appends_firstn : forall df out, appends df out ->
  firstn (length df) out = df /\ Forall (fun c : column => length (snd c) = nrows df) (skipn (length df) out).
Proof. exact appends_firstn. Qed.

(* ---- each of the five constructors only appends ----
   READ THIS FIRST.  The five statements below hold *by construction of the model*: every constructor is transcribed as
   [df ++ <new columns>], and the transformer / noise columns are [map f (seq 0 (nrows df))].  They say that the transcription
   has the shape the property demands and that the rule-derived columns have one cell per row (the only content: lengths, under
   [wf df] and the configuration naming existing columns); they do NOT prove that pandas' [pd.concat(axis=1)] aligns rows,
   keeps dtypes or that a transformer returns an array of the right length — that part of the clause is modelled away.
   For the real code the clause "only appends; originals, values and row order preserved; one value per row" is carried by
   the checker [append_okb], proved sound below (C11_append_checker_sound), which the harness evaluates on every frame the
   implementation returns (RangeIndex string frames, which is all compute_batch_ranking ever builds; behaviour on other row
   indexes is recorded as an observation per constructor, see notes/C11.md). *)
Theorem C11_append_multivalue : forall df missing feats out,
  wf df -> multivalue df missing feats = Some out -> appends df out.
Proof. exact multivalue_appends. Qed.

Theorem C11_append_subfeatures : forall df ops out, wf df -> subfeatures df ops = Some out -> appends df out.
Proof. exact subfeatures_appends. Qed.

Theorem C11_append_combined : forall h sep df sel, appends df (combined h sep df sel).
Proof. exact combined_appends. Qed.

Theorem C11_append_transform : forall T df out, transform T df = Some out -> appends df out.
Proof. exact transform_appends. Qed.

Theorem C11_append_noise : forall rnd df label out, wf df -> noisy rnd df label = Some out -> appends df out.
Proof. exact noisy_appends. Qed.

(* ---- composition: any steps, in any order and number, that each only append, only append ---- *)
Theorem C11_compose : forall steps, Forall append_step steps ->
  forall df df', wf df -> run_steps steps df = Some df' -> appends df df' /\ wf df'.
Proof. exact run_steps_appends. Qed.

(* ... in particular the sequence compute_batch_ranking runs, for every setting of the construction flags,
   every hash, transformer outcome, random draw and sampler behaviour *)
Theorem C11_batch : forall h T rnd sample cfg df out,
  wf df -> batch_construct h T rnd sample cfg df = Some out -> appends df out /\ wf out.
Proof. exact batch_appends. Qed.

(* tokens of a cell: the maximal '-'-free pieces after replacing ',' by '-' *)
Theorem C11_tokens : forall v,
  join1 DASH (tokens v) = map (fun c => if N.eqb c COMMA then DASH else c) v /\
  forall t, In t (tokens v) -> ~ In DASH t.
Proof. exact tokens_spec. Qed.

(* one column MULTIEX-f-t per distinct non-missing token t occurring in f, and it is t's indicator column
   (the columns of one feature are emitted in sorted token order, as the code does since b8c228d; the statement below
   does not depend on the order) *)
Theorem C11_multivalue : forall df missing feats out f t,
  multivalue df missing feats = Some out -> In f feats -> ~ In DASH t ->
  ((exists col, In (mv_name f t, col) (skipn (length df) out)) <->
   (~ In t missing /\ exists v, In v (getcol df f) /\ In t (tokens v))) /\
  (forall col, In (mv_name f t, col) (skipn (length df) out) -> col = mv_column (getcol df f) t).
Proof. exact multivalue_rule. Qed.

Theorem C11_multivalue_names_distinct : forall df missing feats out,
  multivalue df missing feats = Some out -> NoDup (names (skipn (length df) out)).
Proof. exact multivalue_names_nodup. Qed.

(* the indicator: "1" exactly on rows whose delimited value contains the token, "" on the others *)
Theorem C11_multivalue_cell : forall vec t i v, nth_error vec i = Some v ->
  (In t (tokens v) -> nth_error (mv_column vec t) i = Some ONE) /\
  (~ In t (tokens v) -> nth_error (mv_column vec t) i = Some EMPTY).
Proof. exact mv_cell. Qed.

(* every appended column is generated by one of the operators under its name, every generated name is present,
   names are distinct and the column kept under a name is the last one written under it *)
Theorem C11_sub_columns : forall df ops out,
  subfeatures df ops = Some out ->
  let new := skipn (length df) out in
  (forall c, In c new -> exists op, In op ops /\ In c (sub_cols df op)) /\
  (forall nm, In nm (names new) <-> exists op, In op ops /\ In nm (names (sub_cols df op))) /\
  NoDup (names new) /\
  (forall nm, dict_get new nm = assoc_last (flat_map (sub_cols df) ops) nm).
Proof. exact subfeatures_columns. Qed.

(* one-sided a->b: one column per value v of the selector b ... *)
Theorem C11_sub_one_columns : forall df fa fb nm col,
  In (nm, col) (sub_cols df (OneSided fa fb)) <->
  exists v, In v (getcol df fb) /\ nm = sub_one_name fa v /\ col = sub_one_column (getcol df fa) (getcol df fb) v.
Proof. exact sub_one_cols. Qed.

(* ... carrying the joined source value a ++ "AND" ++ b exactly on the rows where the selector has the value v *)
Theorem C11_sub_one : forall A B v i a b, nth_error A i = Some a -> nth_error B i = Some b ->
  (b = v -> nth_error (sub_one_column A B v) i = Some (a ++ S_AND ++ b)) /\
  (b <> v -> nth_error (sub_one_column A B v) i = Some EMPTY).
Proof. exact sub_one_cell. Qed.

(* two-sided a<->b: one column per pair of values (u of a, v of b) ... *)
Theorem C11_sub_two_columns : forall df fa fb nm col,
  In (nm, col) (sub_cols df (TwoSided fa fb)) <->
  exists u v, In u (getcol df fa) /\ In v (getcol df fb) /\ nm = sub_two_name fa fb u v /\
              col = sub_two_column (getcol df fa) (getcol df fb) u v.
Proof. exact sub_two_cols. Qed.

(* ... which is the indicator of the value pair *)
Theorem C11_sub_two : forall A B u v i a b, nth_error A i = Some a -> nth_error B i = Some b ->
  ((a, b) = (u, v) -> nth_error (sub_two_column A B u v) i = Some ONE) /\
  ((a, b) <> (u, v) -> nth_error (sub_two_column A B u v) i = Some ZERO).
Proof. exact sub_two_cell. Qed.

(* ---- noise controls: the target control column replicates the label ---- *)
Theorem C11_target_control : forall rnd df label out, noisy rnd df label = Some out -> has_col df label = true ->
  let new := skipn (length df) out in
  names new = CONTROL_RANDOM ++ [CONTROL_TARGET; CONTROL_VOLUME] /\
  getcol new CONTROL_TARGET = getcol df label /\ In (CONTROL_TARGET, getcol df label) new.
Proof. exact noisy_target. Qed.

(* ---- the checkers evaluated on the implementation's frames are sound ---- *)
Theorem C11_append_checker_sound : forall df out, append_okb df out = true -> appends df out.
Proof. exact append_okb_sound. Qed.

Theorem C11_rule_checker_sound : forall df m out,
  check_against df (Some m) out = (true, true) ->
  appends df out /\ forall c, In c (skipn (length df) out) <-> In c (skipn (length df) m).
Proof. exact check_against_sound. Qed.

Theorem C11_noise_checker_sound : forall df label out, noise_okb df label out = (true, true) -> has_col df label = true ->
  appends df out /\ getcol (skipn (length df) out) CONTROL_TARGET = getcol df label /\
  forall nm, In nm (names (skipn (length df) out)) <-> In nm (CONTROL_RANDOM ++ [CONTROL_TARGET; CONTROL_VOLUME]).
Proof. exact noise_okb_sound. Qed.

Print Assumptions C11_appends_firstn.
Print Assumptions C11_append_multivalue.
Print Assumptions C11_append_subfeatures.
Print Assumptions C11_append_combined.
Print Assumptions C11_append_transform.
Print Assumptions C11_append_noise.
Print Assumptions C11_compose.
Print Assumptions C11_batch.
Print Assumptions C11_tokens.
Print Assumptions C11_multivalue.
Print Assumptions C11_multivalue_names_distinct.
Print Assumptions C11_multivalue_cell.
Print Assumptions C11_sub_columns.
Print Assumptions C11_sub_one_columns.
Print Assumptions C11_sub_one.
Print Assumptions C11_sub_two_columns.
Print Assumptions C11_sub_two.
Print Assumptions C11_target_control.
Print Assumptions C11_append_checker_sound.
Print Assumptions C11_rule_checker_sound.
Print Assumptions C11_noise_checker_sound.
