(* C01 — the plain estimator equals the plug-in Shannon mutual information.
   Only statements; each is an instance of a lemma of MI/Proofs.v.

   [entry Y X c]  : transcription of mutual_info_estimator_numba(Y, X, 1.0, c) (MI/Model.v); its value is the
                    term structure of integers the numba code feeds into log;
   [eval_R]       : meaning of a term structure in R (mirrors the code's arithmetic term by term);
   [MI_plugin], [H], [Hcond] : textbook plug-in quantities in nats over the occurring values (MI/Spec.v).
   No bound on n, on the codes or on the cardinalities; the model is total over Z (the real code needs codes >= 0).
   "Up to single-precision rounding" is carried by the tolerance of the correspondence check, not by a theorem. *)
From Coq Require Import Reals List ZArith.
From Outrank Require Import Common.RSum MI.Model MI.Spec MI.Proofs.
Import ListNotations.
Open Scope R_scope.

Definition C01_case : Type := list Z * list Z.                       (* (Y, X) *)
Definition C01_model (c : C01_case) : terms := entry (fst c) (snd c) false.

Theorem C01_plugin : forall Y X, length Y = length X -> (0 < length X)%nat ->
  eval_R (entry Y X false) = MI_plugin Y X.
Proof. exact plugin_identity. Qed.

Theorem C01_symm : forall Y X, length Y = length X -> (0 < length X)%nat ->
  eval_R (entry Y X false) = eval_R (entry X Y false).
Proof. exact entry_symm. Qed.

Theorem C01_symm_spec : forall Y X, length Y = length X -> (0 < length X)%nat -> MI_plugin Y X = MI_plugin X Y.
Proof. exact (fun Y X Hlen _ => plugin_symm Y X Hlen). Qed.

Theorem C01_nonneg : forall Y X, length Y = length X -> (0 < length X)%nat -> 0 <= MI_plugin Y X.
Proof. exact plugin_nonneg. Qed.

Theorem C01_const_l : forall Y X a, length Y = length X -> (0 < length X)%nat ->
  (forall v, In v Y -> v = a) -> MI_plugin Y X = 0.
Proof. exact plugin_const_l. Qed.

Theorem C01_const_r : forall Y X a, length Y = length X -> (0 < length X)%nat ->
  (forall v, In v X -> v = a) -> MI_plugin Y X = 0.
Proof. exact plugin_const_r. Qed.

Theorem C01_le_min : forall Y X, length Y = length X -> (0 < length X)%nat ->
  MI_plugin Y X <= Rmin (H Y) (H X).
Proof. exact plugin_le_min. Qed.

Theorem C01_self : forall Y, (0 < length Y)%nat -> MI_plugin Y Y = H Y.
Proof. exact plugin_self. Qed.

(* the same consequences stated about the score itself, the form in which properties.jsonl states them ("the score is symmetric, never
   negative, zero when either vector is constant, at most the smaller entropy, the entropy on a self pair");
   one-line compositions of C01_plugin with the facts about MI_plugin above *)
Theorem C01_score_nonneg : forall Y X, length Y = length X -> (0 < length X)%nat -> 0 <= eval_R (entry Y X false).
Proof. exact score_nonneg. Qed.

Theorem C01_score_const_l : forall Y X a, length Y = length X -> (0 < length X)%nat ->
  (forall v, In v Y -> v = a) -> eval_R (entry Y X false) = 0.
Proof. exact score_const_l. Qed.

Theorem C01_score_const_r : forall Y X a, length Y = length X -> (0 < length X)%nat ->
  (forall v, In v X -> v = a) -> eval_R (entry Y X false) = 0.
Proof. exact score_const_r. Qed.

Theorem C01_score_le_min : forall Y X, length Y = length X -> (0 < length X)%nat ->
  eval_R (entry Y X false) <= Rmin (H Y) (H X).
Proof. exact score_le_min. Qed.

Theorem C01_score_self : forall Y, (0 < length Y)%nat -> eval_R (entry Y Y false) = H Y.
Proof. exact score_self. Qed.

(* the chain rule in the form the code computes it: marginal entropy minus conditional entropy *)
Theorem C01_chain : forall Y X, length Y = length X -> (0 < length X)%nat ->
  MI_plugin Y X = H Y - Hcond Y X.
Proof. exact plugin_chain. Qed.

(* non-vacuity: a 3 x 4-valued pair with a singleton stratum, a skipped zero count and a pure stratum *)
Definition exY : list Z := [0; 1; 2; 0; 1; 2; 0; 0; 1; 2]%Z.
Definition exX : list Z := [5; 5; 9; 9; 7; 7; 5; 3; 9; 9]%Z.
Example C01_nonvacuous :
  length exY = length exX /\ (0 < length exX)%nat /\
  enc (entry exY exX false)
  = (10%Z, [4; 3; 3]%Z, [(3%Z, [2; 1]%Z, [1; 1; 1]%Z); (2%Z, [1; 1]%Z, [2]%Z); (4%Z, [1; 1; 2]%Z, [3; 1]%Z)], false).
Proof. repeat split. vm_compute. repeat constructor. Qed.

Print Assumptions C01_plugin.
Print Assumptions C01_symm.
Print Assumptions C01_symm_spec.
Print Assumptions C01_nonneg.
Print Assumptions C01_const_l.
Print Assumptions C01_const_r.
Print Assumptions C01_le_min.
Print Assumptions C01_self.
Print Assumptions C01_chain.
Print Assumptions C01_score_nonneg.
Print Assumptions C01_score_const_l.
Print Assumptions C01_score_const_r.
Print Assumptions C01_score_le_min.
Print Assumptions C01_score_self.
