(* C15 — frequency sketches err on one side only.
   Only statements here; each follows in a line from a lemma of Sketch/CMSProofs.v or
   Sketch/BoundedProofs.v.

   Count-min sketch (Sketch/CMS.v): [pre i x] is the hash oracle (the value cms_hash reduces
   modulo the width) — the theorems hold for EVERY function, every depth and every width >= 1.
   [flat ops] is the stream of (item, weight) that a list of add / batch_add calls stands for.
   Bounded counter (Sketch/Bounded.v): [crun bound l] feeds the items of [l] one by one. *)
From Coq Require Import List ZArith NArith Arith Bool.
From Outrank Require Import Sketch.CMS Sketch.CMSProofs Sketch.Bounded Sketch.BoundedProofs.
Import ListNotations.
Open Scope Z_scope.

(* an estimate never falls below the true accumulated weight of the item ... *)
Theorem C15_lower : forall depth width pre ops x q, (1 <= width)%nat -> nonneg (flat ops) ->
  query depth width pre (run depth width pre ops) x = Some q -> true_weight x (flat ops) <= q.
Proof. intros depth width pre ops x q Hw Hn Hq. exact (proj1 (query_bounds depth width pre Hw ops x q Hn Hq)). Qed.

(* ... and never exceeds the total weight added *)
Theorem C15_upper : forall depth width pre ops x q, (1 <= width)%nat -> nonneg (flat ops) ->
  query depth width pre (run depth width pre ops) x = Some q -> q <= total (flat ops).
Proof. intros depth width pre ops x q Hw Hn Hq. exact (proj2 (query_bounds depth width pre Hw ops x q Hn Hq)). Qed.

(* with at least one row the query is defined (Python's min() of an empty sequence raises) *)
Theorem C15_defined : forall depth width pre M x, (1 <= depth)%nat -> exists q, query depth width pre M x = Some q.
Proof. exact query_defined. Qed.

(* the estimate is the minimum over the rows of the cell the UPDATE side wrote for that item *)
Theorem C15_query_is_min : forall depth width pre M x q, query depth width pre M x = Some q ->
  In q (probes depth width pre M x) /\ Forall (fun b => q <= b) (probes depth width pre M x).
Proof. exact query_is_min. Qed.

(* each sketch row sums to the total weight (no sign hypothesis needed) *)
Theorem C15_rows : forall depth width pre ops i, (1 <= width)%nat -> (i < depth)%nat ->
  rowsum (run depth width pre ops) i = total (flat ops).
Proof. intros depth width pre ops i Hw Hi. exact (rows_total depth width pre Hw ops i Hi). Qed.

(* every cell holds exactly the weight of the stream elements hashing to it; cells nothing hashes to are 0 *)
Theorem C15_cell : forall depth width pre ops i j, (1 <= width)%nat -> (i < depth)%nat ->
  cell (run depth width pre ops) i j = cell_weight width pre i j (flat ops).
Proof. intros depth width pre ops i j Hw Hi. exact (cell_char depth width pre Hw ops i j Hi). Qed.

Theorem C15_support : forall depth width pre ops i j, (1 <= width)%nat -> (i < depth)%nat ->
  cell (run depth width pre ops) i j <> 0 -> exists e, In e (flat ops) /\ loc width pre i (fst e) = j.
Proof. intros depth width pre ops i j Hw Hi. exact (cell_support depth width pre Hw ops i j Hi). Qed.

Theorem C15_shape : forall depth width pre ops, (1 <= width)%nat ->
  length (run depth width pre ops) = depth /\
  forall i, (i < depth)%nat -> length (nth i (run depth width pre ops) []) = width.
Proof. intros depth width pre ops Hw. exact (shape depth width pre Hw ops). Qed.

(* the checker evaluated on implementation outputs is sound, and the model passes it *)
Theorem C15_check_sound : forall depth items s qs rs,
  check1 depth items s qs rs = true -> clause1 depth items s qs rs.
Proof. exact check1_sound. Qed.

Theorem C15_model_ok : forall depth width pre items ops, (1 <= width)%nat -> (1 <= depth)%nat -> nonneg (flat ops) ->
  checkb depth items [] ops (map (model_obs depth width pre items) (trace width pre (init depth width) ops)) = true.
Proof. intros depth width pre items ops Hw Hd Hn. exact (model_ok depth width pre Hw items ops Hd Hn). Qed.

(* never over-counts *)
Theorem C15_b_no_over : forall bound l v, 0 <= get (crun bound l) v <= occ v l.
Proof. exact no_over. Qed.

(* exact while fewer than [bound] distinct values have been seen *)
Theorem C15_b_exact : forall bound l v, Z.of_nat (distinct l) < bound -> get (crun bound l) v = occ v l.
Proof. exact exact. Qed.

(* ... including the arrival that makes the number of distinct values reach the bound *)
Theorem C15_b_exact_boundary : forall bound l x v, Z.of_nat (distinct l) < bound ->
  get (crun bound (l ++ [x])) v = occ v (l ++ [x]).
Proof. exact exact_boundary. Qed.

(* never tracks more than [bound] distinct values *)
Theorem C15_b_size : forall bound l,
  Z.of_nat (length (crun bound l)) <= Z.max bound 0 /\ NoDup (keys (crun bound l)).
Proof. exact size. Qed.

(* mechanism: once [bound] keys are tracked every further update is refused *)
Theorem C15_b_frozen : forall bound l l', bound <= Z.of_nat (length (crun bound l)) ->
  crun bound (l ++ l') = crun bound l.
Proof. exact frozen. Qed.

(* the same one-sidedness and exactness for mixed add / batch_add streams *)
Theorem C15_b_no_over_ops : forall bound ops v, 0 <= get (crun_ops bound ops) v <= occ v (cflat ops).
Proof. exact no_over_ops. Qed.
Theorem C15_b_exact_ops : forall bound ops v, Z.of_nat (distinct (cflat ops)) < bound ->
  get (crun_ops bound ops) v = occ v (cflat ops).
Proof. exact exact_ops. Qed.

(* limits of the statement, documented by witnesses: batch_add may overshoot the bound (the size
   clause is about item-by-item feeding), and "fewer than" cannot be weakened to "at most" *)
Theorem C15_b_batch_size_refuted : exists bound ops, Z.of_nat (length (crun_ops bound ops)) > Z.max bound 0.
Proof. exact batch_size_refuted. Qed.
Theorem C15_b_exact_at_bound_refuted : exists bound l v,
  Z.of_nat (distinct l) = bound /\ get (crun bound l) v <> occ v l.
Proof. exact exact_at_bound_refuted. Qed.

Theorem C15_b_check_sound : forall bound univ single l c,
  ccheck1 bound univ single l c = true -> cclause bound univ single l c.
Proof. exact ccheck1_sound. Qed.
Theorem C15_b_model_ok : forall bound univ ops,
  forallb (fun b => b) (ccheckb bound univ true [] ops (ctrace bound [] ops)) = true.
Proof. exact cmodel_ok. Qed.

(* ---- observation about the code's hash, NOT part of the property: cms_hash is additive in the seed,
        (uint32(hash x) + seed) mod width; then all depth probes of an item hold the same value, so the
        row-wise minimum equals the value of any single row and depth buys no accuracy ---- *)
Theorem C15_obs_rows_agree : forall depth width h s ops x i i',
  (1 <= width)%nat -> (i < depth)%nat -> (i' < depth)%nat ->
  cell (run depth width (pre_add h s) ops) i (loc width (pre_add h s) i x)
  = cell (run depth width (pre_add h s) ops) i' (loc width (pre_add h s) i' x).
Proof. intros depth width h s ops x i i' Hw. exact (additive_rows_agree depth width h s Hw ops x i i'). Qed.

(* ---- the hypotheses are satisfiable by non-trivial inputs ---- *)
(* width 2, depth 2, a hash that collides: items 1 and 3 share every cell *)
Example C15_ex_cms :
  let pre := fun (i : nat) (x : N) => (x + N.of_nat i)%N in
  let ops := [Add 1%N 2; Batch [3%N; 2%N] 5; Add 1%N 0] in
  (query 2 2 pre (run 2 2 pre ops) 1%N, true_weight 1%N (flat ops), total (flat ops),
   run 2 2 pre ops) = (Some 7, 2, 12, [[5; 7]; [7; 5]]).
Proof. vm_compute. reflexivity. Qed.

Example C15_ex_counter :
  (crun 2 [7%N; 8%N; 7%N; 9%N; 8%N], distinct [7%N; 8%N; 7%N; 9%N; 8%N]) = ([(7%N, 1); (8%N, 1)], 3%nat).
Proof. vm_compute. reflexivity. Qed.

Print Assumptions C15_lower.
Print Assumptions C15_upper.
Print Assumptions C15_rows.
Print Assumptions C15_b_no_over.
Print Assumptions C15_b_exact.
Print Assumptions C15_b_size.
