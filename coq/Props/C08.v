(* C08 — streaming equals reference batch semantics with median aggregation.
   Only statements here; each is an instance of a lemma (or a pair of lemmas) of Pipeline/StreamProofs.v,
   AggregateProofs.v, PerBatch.v, C08ModelProofs.v.

   Vocabulary (Pipeline/Stream.v, Aggregate.v, C08Model.v):
   [batches/invalid_count/checkpoints/grouped score agg c lines] are the observables of the transcribed loop of
   estimate_importances_minibatches for ANY per-batch scorer [score] and ANY aggregation [agg];
   [selected s 0 lines] = the lines at 1-based positions that are multiples of s; [good] = the well-formed ones
   among them; [chunks B l] = (consecutive chunks of exactly B, remainder); [aggregate] = one row per ordered
   pair holding [median2] (twice the median) of that pair's scores; [final_sort] = ascending by score. *)
From Coq Require Import List Arith NArith ZArith Bool Permutation Sorting.Sorted.
From Outrank Require Import Common.Median Pipeline.Stream Pipeline.StreamProofs Pipeline.Aggregate
  Pipeline.AggregateProofs Pipeline.PerBatch Pipeline.C08Model Pipeline.C08ModelProofs.
Import ListNotations.

(* Conditions under which the model is a faithful reading of the code.  The first is written as a hypothesis of every loop
   theorem (the proofs use B >= 1 only); the second is a modelling assumption and appears in no statement:
   - B >= 1 and s >= 1.  For s = 0 Python raises ZeroDivisionError while [N.modulo k 0 = k] would make [sstep] skip every
     line: without the hypothesis the statements would be true of the model for the wrong reason.  Negative values are
     not transcribed.
   - heuristic <> 'Constant': [flush] always checkpoints; the code checkpoints a full batch only for a non-Constant
     heuristic (the tail batch always).  With 'Constant' and no tail batch the real task writes its outputs and then ends
     in FileNotFoundError at os.remove('ranking_checkpoint_tmp.tsv') (recorded as an observation in notes/C08.md). *)

(* consumed rows, batch boundaries, tail rule: the batches are the full chunks of size B of the well-formed rows
   among every s-th line (1-based, file order), plus the remainder iff it has MORE than [ctail c] rows *)
Theorem C08_batches : forall (row table : Type) (score : list line -> list row) (agg : list row -> table) c lines,
  (0 < cB c)%nat -> (0 < cs c)%N ->
  batches score agg c lines =
  let g := good c 0 lines in
  fst (chunks (cB c) g) ++ (if (ctail c <? length (snd (chunks (cB c) g)))%nat then [snd (chunks (cB c) g)] else []).
Proof. exact (fun row table score agg c lines HB _ => batches_spec score agg c HB lines). Qed.

(* [chunks] is the (unique) split into chunks of exactly B rows, in order, with a remainder shorter than B *)
Theorem C08_chunks : forall (A : Type) B (l : list A), (0 < B)%nat ->
  concat (fst (chunks B l)) ++ snd (chunks B l) = l /\
  Forall (fun b => length b = B) (fst (chunks B l)) /\ (length (snd (chunks B l)) < B)%nat.
Proof. exact @chunks_spec. Qed.
Theorem C08_chunks_unique : forall (A : Type) B (l : list A) f1 r1 f2 r2, (0 < B)%nat ->
  is_chunking B l f1 r1 -> is_chunking B l f2 r2 -> f1 = f2 /\ r1 = r2.
Proof. exact (fun A B l f1 r1 f2 r2 _ => chunking_unique B l f1 r1 f2 r2). Qed.

(* [selected] keeps exactly the lines whose 1-based position is a multiple of s, in file order *)
Theorem C08_selected : forall s lines k0,
  selected s k0 lines = map snd (filter (fun p => N.eqb (N.modulo (fst p) s) 0) (number (N.succ k0) lines)).
Proof. exact selected_spec. Qed.

(* skipped rows are counted: the selected lines whose field count differs from the header's *)
Theorem C08_invalid_count : forall (row table : Type) (score : list line -> list row) (agg : list row -> table) c lines,
  (0 < cB c)%nat -> (0 < cs c)%N ->
  invalid_count score agg c lines = length (filter (fun l => negb (wf c l)) (selected (cs c) 0 lines)).
Proof. exact (fun row table score agg c lines HB _ => invalid_spec score agg c HB lines). Qed.

(* the aggregate has exactly one row per ordered pair that occurs, and its score is the median of the pair's scores *)
Theorem C08_median : forall rows k,
  lookup k (aggregate rows) = if in_dec key_eq_dec k (map fst rows) then Some (median2 (scores_of k rows)) else None.
Proof. exact aggregate_lookup. Qed.
Theorem C08_median_rows : forall rows r,
  In r (aggregate rows) <-> In (fst r) (map fst rows) /\ snd r = median2 (scores_of (fst r) rows).
Proof. exact aggregate_rows. Qed.
Theorem C08_median_one_row_per_pair : forall rows, NoDup (map fst (aggregate rows)).
Proof. exact aggregate_NoDup. Qed.
(* the scores of a pair are those of the rows that carry the pair's names *)
Theorem C08_scores_of : forall k rows z, In z (scores_of k rows) <-> In (k, z) rows.
Proof. exact scores_of_In. Qed.
(* [median2] on any sorted arrangement: twice the middle element, or the sum of the two middle elements *)
Theorem C08_median2_meaning : forall l s, Permutation s l -> StronglySorted Z.le s ->
  median2 l = let n := length s in
              if Nat.even n then (nth (n / 2 - 1) s 0 + nth (n / 2) s 0)%Z else (2 * nth (n / 2) s 0)%Z.
Proof. exact median2_sorted. Qed.

(* "the median of its PER-BATCH scores": [C08_median] is about all ROWS that carry the pair.  If every batch that
   evaluates pair k contributes the same number m > 0 of rows for k, all with that batch's score (the candidate list is
   duplicate-free after repo commit b3d9d15: m = 1 for an ordered pair of distinct names, m = 2 for a self-pair, whose
   mirror is itself), the aggregate's score is the median of one score per batch.  Otherwise it is a weighted median
   ([C08_weighted_median_differs]: rows 1,1,1,1,5,5,9,9 have median 3, the per-batch scores 1,5,9 median 5; the theorem
   shows 6 and 10 because [median2] is twice the median); notes/C08.md records the code path, a binding cap, that
   produced such batches. *)
Theorem C08_median_per_batch : forall m k brs, (0 < m)%nat -> uniform_batches m k brs -> In k (map fst (concat brs)) ->
  lookup k (aggregate (concat brs)) = Some (median2 (per_batch_scores k brs)).
Proof. exact aggregate_per_batch. Qed.
Theorem C08_median_replicate : forall m l, (0 < m)%nat -> median2 (mrep m l) = median2 l.
Proof. exact median2_mrep. Qed.
Theorem C08_weighted_median_differs :
  let k := (1%N, 1%N) in
  let brs := [[(k, 1%Z); (k, 1%Z); (k, 1%Z); (k, 1%Z)]; [(k, 5%Z); (k, 5%Z)]; [(k, 9%Z); (k, 9%Z)]] in
  median2 (scores_of k (concat brs)) = 6%Z /\ median2 (per_batch_scores k brs) = 10%Z.
Proof. exact weighted_median_differs. Qed.
(* the table the checker holds the written scores to: keeping one row per batch and ordered pair yields exactly the
   per-batch scores, whatever the multiplicities were *)
Theorem C08_per_batch_table : forall k brs, scores_of k (concat (map batch_once brs)) = per_batch_scores k brs.
Proof. exact batch_once_scores_all. Qed.

(* [median2] is a median in the usual sense: at most half of the scores lie strictly below it, at most half above *)
Theorem C08_median_rank : forall l, l <> [] ->
  (2 * length (filter (below2 (median2 l)) l) <= length l)%nat /\
  (2 * length (filter (above2 (median2 l)) l) <= length l)%nat.
Proof. exact median2_rank. Qed.

(* the written table is a permutation of the aggregate in ascending score order.  Nothing is claimed about the order
   of rows with EQUAL scores: the model sorts stably, pandas' sort_values uses an unstable quicksort; the harness
   accepts any ascending arrangement ([v_sorted] of C08_check is [sortedb]; [v_final] compares the tables after sorting
   both canonically, scores within the tolerance of [close2]). *)
Theorem C08_sorted : forall t,
  Permutation (final_sort t) t /\ StronglySorted (fun r1 r2 : Aggregate.row => (snd r1 <= snd r2)%Z) (final_sort t).
Proof. exact (fun t => conj (final_sort_perm t) (final_sort_sorted t)). Qed.

(* after batch j+1 the checkpoint holds the aggregation of the rows of the first j+1 batches, for every prefix *)
Theorem C08_checkpoint_prefix : forall (row table : Type) (score : list line -> list row) (agg : list row -> table) c lines,
  (0 < cB c)%nat -> (0 < cs c)%N ->
  length (checkpoints score agg c lines) = length (batches score agg c lines) /\
  forall j, (j < length (batches score agg c lines))%nat ->
    nth_error (checkpoints score agg c lines) j =
    Some (agg (concat (map score (firstn (S j) (batches score agg c lines))))).
Proof. exact (fun row table score agg c lines _ _ => checkpoints_spec score agg c lines). Qed.

(* the frame returned at the end aggregates the rows of all batches *)
Theorem C08_grouped : forall (row table : Type) (score : list line -> list row) (agg : list row -> table) c lines,
  (0 < cB c)%nat -> (0 < cs c)%N ->
  grouped score agg c lines = agg (concat (map score (batches score agg c lines))).
Proof. exact (fun row table score agg c lines _ _ => f_equal agg (all_rows_spec score agg c lines)). Qed.

(* the model the harness evaluates, end to end *)
Theorem C08_model_spec : forall k, (0 < cB (k_cfg k))%nat ->
  let c := k_cfg k in let lines := decode_lines (k_segs k) in
  let ref := reference_batches c lines in let score := score_of (k_rows k) in
  C08_model k =
  (map (map fst) ref,
   length (filter (fun l => negb (wf c l)) (selected (cs c) 0 lines)),
   map (fun j => aggregate (concat (map score (firstn j ref)))) (seq 1 (length ref)),
   final_sort (aggregate (concat (map score ref)))).
Proof. exact model_spec. Qed.

(* the checker run on implementation outputs is sound for the property's clauses *)
Theorem C08_check_sound : forall k ob oi oc of, verdict_ok (C08_check k (ob, oi, oc, of)) = true ->
  let c := k_cfg k in let lines := decode_lines (k_segs k) in
  let ref := reference_batches c lines in let score := score_of (k_rows k) in
  ob = map (map fst) ref
  /\ oi = length (filter (fun l => negb (wf c l)) (selected (cs c) 0 lines))
  /\ length oc = length ref
  /\ (forall j, (j < length ref)%nat -> tables_close (aggregate (concat (map score (firstn (S j) ref)))) (nth j oc []))
  /\ StronglySorted Z.le (map snd of)
  /\ tables_close (aggregate (concat (map score ref))) of
  /\ (forall b r r', In b ref -> In r (score b) -> In r' (score b) -> fst r = fst r' -> snd r = snd r')
  /\ tables_close (aggregate (concat (map batch_once (map score ref)))) of.
Proof. exact check_sound. Qed.

Print Assumptions C08_batches.
Print Assumptions C08_chunks.
Print Assumptions C08_chunks_unique.
Print Assumptions C08_selected.
Print Assumptions C08_invalid_count.
Print Assumptions C08_median.
Print Assumptions C08_median_rows.
Print Assumptions C08_median_one_row_per_pair.
Print Assumptions C08_scores_of.
Print Assumptions C08_median2_meaning.
Print Assumptions C08_median_per_batch.
Print Assumptions C08_median_replicate.
Print Assumptions C08_weighted_median_differs.
Print Assumptions C08_per_batch_table.
Print Assumptions C08_median_rank.
Print Assumptions C08_sorted.
Print Assumptions C08_checkpoint_prefix.
Print Assumptions C08_grouped.
Print Assumptions C08_model_spec.
Print Assumptions C08_check_sound.
