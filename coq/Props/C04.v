(* C04 — subsampled estimation is memory-safe, deterministic, sample-only.
   Only statements here; each theorem is closed by [exact] of a lemma of MI/SubProofs.v, MI/SubFloat.v or MI/SubAgree.v, or is a
   definition unfolded ([reflexivity], marked as such).  Model: MI/Subsample.v.

     entry g Y X r c     mutual_info_estimator_numba(Y, X, r, c): the exact integer term structure fed to np.log
     subsample g Y X r   stratified_subsampling(Y, X, r, numba_unique(X)[0]): the two returned arrays
     g : nat -> Z        garbage oracle = what position p of the freshly allocated index buffer yields when it
                         is used without having been written ("prior allocator history")
     r : Q               exact value of the float32 ratio (float computations = exact floors: C04_float_* below)
     Error _             a slice write outside the buffer or a row index outside [0, n)
   X is the stratifying ("target") vector, Y the other one; both have the same length (the code's
   precondition, as in C01). *)
From Coq Require Import List Arith ZArith QArith Bool Sorted Reals Qreals.
From Flocq Require Import Core.
From Outrank Require MI.Model.
From Outrank Require Import MI.Subsample MI.SubProofs MI.SubFloat MI.SubAgree.
Import ListNotations.
Local Close Scope Q_scope.

(* --- memory safety: no history of earlier allocations can make the call fail --------------------------
   X <> [] is the code's own precondition (numba_unique raises on np.max of an empty array; the model does not
   transcribe that raise and claims nothing about the empty input). *)
Theorem C04_safe_subsample : forall (g : nat -> Z) Y X r e,
  X <> [] -> length Y = length X -> subsample g Y X r <> Error e.
Proof. exact (fun g Y X r e _ => subsample_safe g Y X r e). Qed.

Theorem C04_safe : forall (g : nat -> Z) Y X r c e,
  X <> [] -> length Y = length X -> entry g Y X r c <> Error e.
Proof. exact (fun g Y X r c e _ => entry_safe g Y X r c e). Qed.

(* [index_buffer Repaired X r (f_values X)] is the buffer slice final_index_array[:index_offset] that
   subsample_gen itself builds and reads (C04_subsample_reads below shows the definition unfolded): when the
   quota is not 0 the loop never writes outside the buffer (= Ok _), EVERY cell the gather reads is a Written
   cell holding the index of an existing row, the slice fits into the allocation, and read back — under any
   garbage oracle — it is exactly the list of sampled rows *)
Theorem C04_all_written : forall X r, quota X r <> 0 ->
  exists cells, index_buffer Repaired X r (f_values X) = Ok cells /\
                Forall (fun c => exists i, c = Written i /\ i < length X) cells /\
                length cells <= final_space_size r (length X) /\
                forall g : nat -> Z, read_buffer g cells = map Z.of_nat (sampled_indices X r).
Proof. exact index_buffer_written. Qed.

(* definition unfolded, not a result: the only buffer cells subsample reads are those of index_buffer *)
Theorem C04_subsample_reads : forall (g : nat -> Z) Y X r,
  subsample g Y X r =
  if quota X r =? 0 then Ok (Y, X) else
  bind (index_buffer Repaired X r (f_values X)) (fun cells =>
  bind (mapM (get_row X) (read_buffer g cells)) (fun X' =>
  bind (mapM (get_row Y) (read_buffer g cells)) (fun Y' => Ok (Y', X')))).
Proof. reflexivity. Qed.

(* --- determinism: the result does not depend on the stale contents ------------------------------------ *)
Theorem C04_garbage_indep : forall (g1 g2 : nat -> Z) Y X r c,
  length Y = length X -> entry g1 Y X r c = entry g2 Y X r c.
Proof. exact entry_garbage_indep. Qed.

Theorem C04_garbage_indep_subsample : forall (g1 g2 : nat -> Z) Y X r,
  length Y = length X -> subsample g1 Y X r = subsample g2 Y X r.
Proof. exact subsample_garbage_indep. Qed.

(* --- sample = per-value prefixes ------------------------------------------------------------------------
   quota = floor(floor(r*n) / #values); the sampled rows are, for the distinct values of X in increasing
   order, the first quota positions carrying that value; all rows when the quota is 0. *)
(* C04_quota and C04_sampled_indices are DEFINITIONS UNFOLDED (reflexivity), displayed here so that C04_prefix_rows
   can be read without opening the model; they are not counted as results *)
Theorem C04_quota : forall X r,
  quota X r = Z.to_nat ((Qnum r * Z.of_nat (length X)) / Zpos (Qden r)) / length (f_values X).
Proof. reflexivity. Qed.

Theorem C04_sampled_indices : forall X r,
  sampled_indices X r =
  if quota X r =? 0 then seq 0 (length X)
  else concat (map (fun v => firstn (quota X r) (where_eq X v)) (f_values X)).
Proof. reflexivity. Qed.

Theorem C04_prefix_rows : forall (g : nat -> Z) Y X r,
  length Y = length X ->
  subsample g Y X r = Ok (rows Y (sampled_indices X r), rows X (sampled_indices X r)).
Proof. exact subsample_spec. Qed.

(* the ingredients mean what their names say: distinct values in increasing order; the positions carrying a
   value, in increasing order; the count stored with a value is its number of rows in the ORIGINAL X *)
Theorem C04_values : forall X,
  StronglySorted Z.lt (f_values X) /\ (forall v, In v (f_values X) <-> In v X).
Proof. exact values_spec. Qed.

Theorem C04_positions : forall X v,
  StronglySorted lt (where_eq X v) /\ (forall i, In i (where_eq X v) <-> nth_error X i = Some v).
Proof. exact positions_spec. Qed.

Theorem C04_counts : forall X v k, In (v, k) (numba_unique X) -> k = length (where_eq X v) /\ 0 < k.
Proof. exact counts_spec. Qed.

Theorem C04_sample_nonempty : forall X r,
  X <> [] -> sampled_indices X r <> [] /\ (forall i, In i (sampled_indices X r) -> i < length X).
Proof. exact sample_nonempty_spec. Qed.

(* --- sample-only: the estimator is a function of the sampled rows (plus the original stratum sizes, the
   flag after the self-pair test, and r) ... *)
Theorem C04_entry_spec : forall (g : nat -> Z) Y X r c,
  length Y = length X ->
  entry g Y X r c = Ok (terms_spec (rows X (entry_indices X r)) (rows Y (entry_indices X r)) (length X)
                                   (numba_unique X) (c && negb (veq X Y)) r).
Proof. exact entry_spec. Qed.

(* ... hence altering Y outside the sampled rows changes nothing, provided the self-pair test
   np.array_equal(X, Y) — the only use of unsampled values — answers the same, or the flag is off *)
Theorem C04_outside_irrelevant : forall (g : nat -> Z) Y Y' X r c,
  length Y = length X -> length Y' = length X ->
  (forall i, In i (entry_indices X r) -> nth i Y 0%Z = nth i Y' 0%Z) ->
  (veq X Y = veq X Y' \/ c = false) ->
  entry g Y X r c = entry g Y' X r c.
Proof. exact entry_outside_irrelevant. Qed.

(* definition unfolded (reflexivity), not a result *)
Theorem C04_entry_indices : forall X r,
  entry_indices X r = if (Qnum r <? Zpos (Qden r))%Z then sampled_indices X r else seq 0 (length X).
Proof. reflexivity. Qed.

(* ... and that side condition is NECESSARY: the property's sentence "the score does not change when feature values
   outside the sampled rows are altered" holds except through the self-pair test, which is made on the full vectors.
   Witness: Y = X, flag on, ONE unsampled cell of Y changed -> the test switches off, the correction on. *)
Theorem C04_outside_selfpair_refuted : exists (g : nat -> Z) Y Y' X r c,
  length Y = length X /\ length Y' = length X /\
  (forall i, In i (entry_indices X r) -> nth i Y 0%Z = nth i Y' 0%Z) /\
  Y <> Y' /\ entry g Y X r c <> entry g Y' X r c.
Proof. exact outside_selfpair_refuted. Qed.

(* --- one transcription: without subsampling (r >= 1) the encoded term structure is the one of the C01-C03
   model MI/Model.v (enc4 = enc_terms without the ratio; both harnesses evaluate this encoding with the same
   float64 evaluator, tools/props/c01.py eval_float) *)
Theorem C04_entry_agrees_full : forall (g : nat -> Z) Y X r c,
  length Y = length X -> (Qnum r <? Zpos (Qden r))%Z = false ->
  exists t, entry g Y X r c = Ok t /\ enc4 t = Model.enc (Model.entry Y X c).
Proof. exact entry_agrees_full. Qed.

(* --- finite score: every argument of np.log is a quotient of two positive integers, every divisor is
   positive *)
Theorem C04_finite : forall (g : nat -> Z) Y X r c,
  length Y = length X -> X <> [] ->
  exists t, entry g Y X r c = Ok t /\
            Forall (fun ab => 0 < fst ab /\ 0 < snd ab) (log_args t) /\
            Forall (fun d => 0 < d) (denominators t).
Proof. exact entry_finite. Qed.

(* --- the behaviour before fix 6ef24c0 (whole np.empty buffer used) does depend on the stale contents:
   X = [0]*7 + [1,2,2], r = float32(0.7): floor(r*n) = 6, quota 2, five cells written, one not *)
Theorem C04_prefix_refuted : exists (g1 g2 : nat -> Z) Y X r c,
  length Y = length X /\ entry_old g1 Y X r c <> entry_old g2 Y X r c.
Proof. exact prefix_refuted. Qed.

Theorem C04_prefix_unsafe : exists (g : nat -> Z) Y X r c,
  length Y = length X /\ entry_old g Y X r c = Error IndexOutOfRange.
Proof. exact prefix_unsafe. Qed.

(* --- the float computations of the code equal the exact ones of the model (Flocq; over R, so these four
   theorems and the example C04_ex_float32 — and only these — depend on the standard-library Reals axioms) ---------------------------------
   binary32 = generic_format radix2 (FLT_exp (-149) 24), binary64 = FLT_exp (-1074) 53, round to nearest even.
   Trusted: numba evaluates float32 * int64 as a binary64 multiplication and int / int as a binary64 division,
   then truncates. *)
Theorem C04_float_product_exact : forall (r : R) (n : Z),
  generic_format radix2 (FLT_exp (-149) 24) r -> (0 < r < 1)%R -> (0 <= n < 2 ^ 29)%Z ->
  generic_format radix2 (FLT_exp (-1074) 53) (r * IZR n) /\
  round radix2 (FLT_exp (-1074) 53) ZnearestE (r * IZR n) = (r * IZR n)%R /\
  Ztrunc (round radix2 (FLT_exp (-1074) 53) ZnearestE (r * IZR n)) = Zfloor (r * IZR n).
Proof. exact product_exact. Qed.

Theorem C04_float_quotient_floor : forall a b : Z,
  (0 <= a < 2 ^ 29)%Z -> (1 <= b < 2 ^ 29)%Z ->
  Zfloor (round radix2 (FLT_exp (-1074) 53) ZnearestE (IZR a / IZR b)) = (a / b)%Z /\
  Ztrunc (round radix2 (FLT_exp (-1074) 53) ZnearestE (IZR a / IZR b)) = (a / b)%Z.
Proof. exact quotient_floor. Qed.

(* int(approximation_factor * all_events) = the model's final_space_size (and it is <= n) *)
Theorem C04_float_final_space_size : forall (q : Q) (n : nat),
  generic_format radix2 (FLT_exp (-149) 24) (Q2R q) -> (0 < Q2R q < 1)%R -> (Z.of_nat n < 2 ^ 29)%Z ->
  Z.of_nat (final_space_size q n) =
    Ztrunc (round radix2 (FLT_exp (-1074) 53) ZnearestE (Q2R q * IZR (Z.of_nat n))) /\
  (Z.of_nat (final_space_size q n) <= Z.of_nat n)%Z.
Proof. exact final_space_size_float. Qed.

(* the quota the code computes in floats = the model's exact quota, for n < 2^29 *)
Theorem C04_float_quota : forall (X : list Z) (q : Q),
  X <> [] -> (Z.of_nat (length X) < 2 ^ 29)%Z ->
  generic_format radix2 (FLT_exp (-149) 24) (Q2R q) -> (0 < Q2R q < 1)%R ->
  Z.of_nat (quota X q) =
  Ztrunc (round radix2 (FLT_exp (-1074) 53) ZnearestE
            (IZR (Ztrunc (round radix2 (FLT_exp (-1074) 53) ZnearestE (Q2R q * IZR (Z.of_nat (length X)))))
             / IZR (Z.of_nat (length (f_values X))))).
Proof. exact quota_float. Qed.

(* non-vacuity: np.float32(0.7) = 11744051 * 2^-24 is a binary32 number in (0,1) *)
Example C04_ex_float32 :
  generic_format radix2 (FLT_exp (-149) 24) (Q2R (11744051 # 16777216)) /\ (0 < Q2R (11744051 # 16777216) < 1)%R.
Proof. exact ex_float32. Qed.

(* --- harness interface (DESIGN Appendix C) ----------------------------------------------------------------- *)
Theorem C04_check_sound : forall Y X r c o,
  C04_check (Y, X, r, c) o = true -> o = (rows Y (sampled_indices X r), rows X (sampled_indices X r)).
Proof. exact check_sound. Qed.

Theorem C04_model_ok : forall Y X r c (g : nat -> Z) o,
  length Y = length X -> subsample g Y X r = Ok o -> C04_check (Y, X, r, c) o = true.
Proof. exact check_model. Qed.

Theorem C04_outside_hyp_sound : forall (g : nat -> Z) Y X r c Y2,
  length Y = length X -> outside_hyp (Y, X, r, c) Y2 = true -> entry g Y X r c = entry g Y2 X r c.
Proof. exact outside_hyp_sound. Qed.

(* --- non-vacuity ------------------------------------------------------------------------------------------ *)
Definition exX : list Z := [0; 0; 0; 0; 0; 0; 0; 1; 2; 2]%Z.
Definition exY : list Z := [0; 1; 0; 1; 2; 2; 0; 1; 1; 0]%Z.
Definition ex07 : Q := (11744051 # 16777216)%Q.

(* a stratum smaller than the quota, floor(r*n) = 6 not a multiple of 3 values, quota 2 *)
Example C04_ex_rows : quota exX ex07 = 2 /\ sampled_indices exX ex07 = [0; 1; 7; 8; 9] /\
  subsample no_garbage exY exX ex07 = Ok ([0; 1; 1; 1; 0]%Z, [0; 0; 1; 2; 2]%Z).
Proof. vm_compute. auto. Qed.

(* the term structure of that call: n = 10, class counts of the sample, strata with ORIGINAL sizes 7 and 2
   (the singleton stratum is skipped) *)
Example C04_ex_terms : C04_model (exY, exX, ex07, true) =
  (0%Z, Some (10, [2; 3], [(7, [1; 1], [2]); (2, [1; 1], [1; 1])], true, (11744051, 16777216))%Z).
Proof. vm_compute. reflexivity. Qed.

(* outside-irrelevance with a non-trivial change: rows 2..6 are not sampled *)
Example C04_ex_outside :
  outside_hyp (exY, exX, ex07, true) [0; 1; 2; 2; 0; 0; 1; 1; 1; 0]%Z = true /\
  exY <> [0; 1; 2; 2; 0; 0; 1; 1; 1; 0]%Z.
Proof. split; [vm_compute; reflexivity | discriminate]. Qed.

(* quota 0: every row is used *)
Example C04_ex_quota0 : quota exX (1 # 4) = 0 /\ sampled_indices exX (1 # 4) = seq 0 10.
Proof. vm_compute. auto. Qed.

(* log arguments and divisors of the example are non-empty lists (C04_finite is not about nothing) *)
Example C04_ex_finite : exists t, entry no_garbage exY exX ex07 false = Ok t /\
  length (log_args t) = 6 /\ denominators t = [10; 7; 2].
Proof. eexists. split; [vm_compute; reflexivity|]. vm_compute. auto. Qed.

Print Assumptions C04_safe_subsample.
Print Assumptions C04_safe.
Print Assumptions C04_all_written.
Print Assumptions C04_subsample_reads.
Print Assumptions C04_outside_selfpair_refuted.
Print Assumptions C04_entry_agrees_full.
Print Assumptions C04_garbage_indep.
Print Assumptions C04_garbage_indep_subsample.
Print Assumptions C04_quota.
Print Assumptions C04_sampled_indices.
Print Assumptions C04_prefix_rows.
Print Assumptions C04_values.
Print Assumptions C04_positions.
Print Assumptions C04_counts.
Print Assumptions C04_sample_nonempty.
Print Assumptions C04_entry_spec.
Print Assumptions C04_outside_irrelevant.
Print Assumptions C04_entry_indices.
Print Assumptions C04_finite.
Print Assumptions C04_prefix_refuted.
Print Assumptions C04_prefix_unsafe.
Print Assumptions C04_check_sound.
Print Assumptions C04_model_ok.
Print Assumptions C04_outside_hyp_sound.
Print Assumptions C04_float_product_exact.
Print Assumptions C04_float_quotient_floor.
Print Assumptions C04_float_final_space_size.
Print Assumptions C04_float_quota.
