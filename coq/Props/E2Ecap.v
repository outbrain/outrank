(* E2Ecap — the ranking task end to end with a BINDING per-batch combination cap
   (--combination_number_upper_bound < number of candidate pairs), for `max-value-coverage` and `Constant`.
   Only statements here; each is closed by [exact] of a lemma of E2E/CapProofs.v / CapExamples.v, the two definitional
   ones (E2Ecap_contributing_def, E2Ecap_sels_ok_def) by eq_refl (the second half of the former: CombosProofs.umemb_uin),
   E2Ecap_checker_complete by SamplerProofs' lemma.

   The model E2E/CapCompose.v is E2E/Compose.v (text -> lines -> rows -> batches -> codes -> pairs -> exact coverage ->
   median -> sorted table; see Props/E2E.v) with C07's sampler threaded through the batches:

     (sel_k, s_{k+1}) := Sampler.step s_k ids cap        ids = positions in Combos.candidates, s_0 = empty counter
     rows of batch k  := Combos.build_rows over sel_k    (random.shuffle of sel_k: E2Ecap_shuffle_independent)

   Vocabulary beyond Props/E2E.v:
   [e2ecap_run c text] / [e2ecap_core c header ps]   the table, or None (outside the fragment -- cap < 1 included -- / no batch);
   [cap_cands c header]                              C06's candidate list (= RowsProofs.cands_of);
   [cap_sels c header ps]                            the selection of every processed batch, in batch order;
   [contributing c header ps a b]                    the tables (parsed rows) of exactly the batches whose selection holds the
                                                     pair {a, b} in either orientation;
   [nsel sels p]                                     the number of selections that list the candidate p;
   [cap_counter], [cap_counts]                       the counter after the last batch / as combination_estimation_counts.json
                                                     reports it (candidate, count). *)
From Coq Require Import List NArith ZArith QArith Bool Arith Permutation Sorting.Sorted.
From Outrank Require Import IO.Str IO.StrProofs.
From Outrank Require IO.Csv IO.CsvProofs IO.Accept.
From Outrank Require Import Common.Median.
From Outrank Require Pipeline.Stream.
From Outrank Require Import Pipeline.Aggregate Pipeline.RankGraph.
From Outrank Require Pipeline.Sampler Pipeline.SamplerProofs Pipeline.Combos Pipeline.CombosProofs.
From Outrank Require Import E2E.Compose E2E.CovProofs E2E.RowsProofs E2E.ComposeProofs E2E.ShuffleProofs E2E.SpecProofs
  E2E.CapCompose E2E.CapProofs E2E.CapExamples.
Import ListNotations.
Local Open Scope nat_scope.

(* ---------------------------------------------------------------------------------------------------------- *)
(* (1) THE statement.  If the task produces a table for max-value-coverage (any cap >= 1), then: at least one batch was
   processed and every batch has its selection; the table is ascending in score with one row per ordered pair; (a, b) has a
   row IFF it is requested by the mode AND the sampler selected {a, b} in at least one batch, and then its score is the
   median of the batch scores over EXACTLY the batches that selected it (both orientations carry the same batches); each
   batch score is the exact maximal joint-value frequency n_uv / n of the two cell columns of that batch. *)
Theorem E2Ecap_spec : forall c header ps t,
  e2ecap_core c header ps = Some t -> Combos.is_const (g_heur c) = false ->
  let tables := batch_tables c header ps in
  let D := common_den (e2e_batches c header ps) in
  tables <> [] /\ D <> 0%N /\ Forall (fun rows => rows <> [] /\ (N.of_nat (length rows) | D)%N) tables /\
  length (cap_sels c header ps) = length tables /\
  StronglySorted (fun r1 r2 : list N * list N * Q => Qle (snd r1) (snd r2)) t /\
  NoDup (map fst t) /\
  (forall a b q, In (a, b, q) t <->
     requested c header a b /\ contributing c header ps a b <> [] /\
     q = Qmake (median2 (map (fun rows => Z.of_N (pair_num header D rows a b)) (contributing c header ps a b))) (den_pos D)) /\
  (forall a b, requested c header a b -> requested c header b a) /\
  (forall a b, contributing c header ps a b = contributing c header ps b a /\ incl (contributing c header ps a b) tables) /\
  (forall rows a b, In rows tables ->
     Qeq (Z.of_N (pair_num header D rows a b) # npos D) (cells_cov (column header rows a) (column header rows b)) /\
     is_max_cov (column header rows a) (column header rows b) (cells_cov (column header rows a) (column header rows b))).
Proof. exact e2ecap_spec. Qed.

(* what [contributing] is, spelled out (definitional): the batch tables paired with the batch selections, filtered by
   "the selection holds (a, b) or (b, a)" *)
Theorem E2Ecap_contributing_def : forall c header ps a b,
  contributing c header ps a b =
  map fst (filter (fun ts => Combos.umemb (a, b) (snd ts)) (combine (batch_tables c header ps) (cap_sels c header ps))) /\
  (forall sel, Combos.umemb (a, b) sel = true <-> In (a, b) sel \/ In (b, a) sel).
Proof. exact (fun c header ps a b => conj eq_refl (fun sel => CombosProofs.umemb_uin (a, b) sel)). Qed.

(* Constant: the candidates selected at least once, each once, in the listed orientation, score 0 *)
Theorem E2Ecap_spec_constant : forall c header ps t,
  e2ecap_core c header ps = Some t -> Combos.is_const (g_heur c) = true ->
  batch_tables c header ps <> [] /\
  NoDup (map fst t) /\
  (forall a b q, In (a, b, q) t <->
     In (a, b) (cap_cands c header) /\ (exists sel, In sel (cap_sels c header ps) /\ In (a, b) sel) /\
     q = Qmake 0 (den_pos (common_den (e2e_batches c header ps)))) /\
  (forall a b, CombosProofs.uin (a, b) (cap_cands c header) <-> requested c header a b).
Proof. exact e2ecap_spec_constant. Qed.

(* (2) fairness (C07_selection_history_fair at the sampler's own history: the candidate list is one stable duplicate-free
   list): the numbers of batches contributing to the medians of two requested pairs differ by at most one *)
Theorem E2Ecap_fair : forall c header ps t, e2ecap_core c header ps = Some t ->
  (forall a b a' b', requested c header a b -> requested c header a' b' ->
     length (contributing c header ps a b) <= S (length (contributing c header ps a' b'))) /\
  (forall p q, In p (cap_cands c header) -> In q (cap_cands c header) ->
     nsel (cap_sels c header ps) p <= S (nsel (cap_sels c header ps) q)).
Proof. exact e2ecap_fair. Qed.

(* (3) the reported counts (combination_estimation_counts.json): exactly the candidates, each once, with the number of
   batches that selected it = the number of batches contributing to its median; the counter is a history of C07's relation
   (C07_counts_are_selections applies to it) *)
Theorem E2Ecap_counts : forall c header ps t, e2ecap_core c header ps = Some t ->
  (forall p n, In (p, n) (cap_counts c header ps) <->
     In p (cap_cands c header) /\ n = nsel (cap_sels c header ps) p) /\
  NoDup (map fst (cap_counts c header ps)) /\
  (forall p, In p (cap_cands c header) ->
     Sampler.get (cap_counter c header ps) (Combos.pidx (cap_cands c header) p) = nsel (cap_sels c header ps) p /\
     nsel (cap_sels c header ps) p = length (contributing c header ps (fst p) (snd p))) /\
  SamplerProofs.hist (fst (cap_sampler c header (nbatches c header ps))) (Sampler.get (cap_counter c header ps)).
Proof. exact e2ecap_counts. Qed.

(* (4) cap >= #candidates: the run is that of E2E/Compose.v, so Props/E2E.v is the special case *)
Theorem E2Ecap_nonbinding : forall c header ps,
  (Z.of_nat (length (cap_cands c header)) <= g_cap c)%Z -> e2ecap_core c header ps = e2e_core c header ps.
Proof. exact cap_nonbinding_eq. Qed.

(* the selections batch by batch: C06's select_run (= C07's step on the candidate positions, counter threaded from the
   empty counter); each is a sub-list of the candidates without repetition, of length min(#candidates, cap); the counter
   stays inside C07's [reach] (C07_fair applies); and at every batch a selected candidate has been selected no more often
   before than an unselected one (least-evaluated first) *)
Theorem E2Ecap_selections : forall c header ps, NoDup header ->
  let cands := cap_cands c header in let sels := cap_sels c header ps in
  sels = Combos.select_run [] cands (g_cap c) (nbatches c header ps) /\
  length sels = nbatches c header ps /\
  Forall (fun sel => CombosProofs.selected_ok cands (g_cap c) sel /\ incl sel cands /\ NoDup sel /\
                     ((0 <= g_cap c)%Z -> length sel = Nat.min (length cands) (Z.to_nat (g_cap c)))) sels /\
  SamplerProofs.reach (cap_ids cands) (Sampler.get (cap_counter c header ps)) /\
  (forall i p q, (i < nbatches c header ps)%nat -> In p (nth i sels []) -> In q cands -> ~ In q (nth i sels []) ->
     nsel (firstn i sels) p <= nsel (firstn i sels) q).
Proof. exact e2ecap_selections. Qed.

(* random.shuffle of the selected list does not reach the table *)
Theorem E2Ecap_shuffle_independent : forall c header ps (evl : list (list Combos.pair)),
  Forall2 (@Permutation _) evl (cap_sels c header ps) ->
  final_table (all_rows_ev c header ps evl) = final_table (cap_all_rows c header ps).
Proof. exact cap_shuffle_independent. Qed.

(* the rows of a batch: Compose's batch rows are the instance "every candidate selected" *)
Theorem E2Ecap_batch_rows_instance : forall c header D rows,
  batch_triplets c header D rows = batch_triplets_sel c header D rows (cap_cands c header).
Proof. exact batch_triplets_is_sel. Qed.

(* the text layer is Compose's: the run on a text is the run on (header, parsed physical lines); on a rendered table it
   is the run on the table *)
Theorem E2Ecap_text_run : forall c text,
  e2ecap_run c text = e2ecap_core c (Accept.csv_raw_header text) (map Csv.parse (tl (phys_lines text))).
Proof. exact cap_text_run. Qed.

Theorem E2Ecap_wellformed_run : forall c (names : list (list N)) (rows : list (list (list N))),
  names <> [] -> Forall (none (fun ch => (ch =? COMMA)%N || is_nl ch)) names -> edge_clean (join_with [COMMA] names) ->
  Forall (fun r => r <> [] /\ Forall (none is_nl) r) rows -> Forall (Forall CsvProofs.flen_ok) rows ->
  e2ecap_run c (render_file names rows) = e2ecap_core c names (map Some rows).
Proof. exact cap_wellformed_run. Qed.

(* ---------------------------------------------------------------------------------------------------------- *)
(* THE RELATIONAL STATEMENTS.  Property C07 leaves the tie-breaking among equally often evaluated candidates free, so the
   end-to-end statement must hold for EVERY admissible history of per-batch selections, not only for the transcription
   Sampler.step.  [isels] = the selections as candidate ids (positions in cap_cands), one list per processed batch;
   [sels_ok c header ps isels] = one selection per batch and C07's checker accepts every step against the counts the
   selections themselves imply; [e2ecap_core_sel c header ps isels] = the table when batch k evaluates [nth k isels];
   [contributing_sel c header ps sels a b] = the tables of exactly the batches whose selection holds {a, b}. *)

Theorem E2Ecap_sels_ok_def : forall c header ps isels,
  sels_ok c header ps isels =
  (Nat.eqb (length isels) (nbatches c header ps)
   && Sampler.valid_runb [] (map (fun cp : Z => (cap_ids (cap_cands c header), cp)) (repeat (g_cap c) (nbatches c header ps)))
                         (Sampler.derived_obs [] isels))%bool.
Proof. exact (fun c header ps isels => eq_refl). Qed.

(* (a) for every admissible selection history: sorted, one row per ordered pair, a row IFF requested and selected in at
   least one batch, score = median over exactly the batches that selected it *)
Theorem E2Ecap_spec_rel : forall c header ps isels t,
  sels_ok c header ps isels = true -> e2ecap_core_sel c header ps isels = Some t -> Combos.is_const (g_heur c) = false ->
  let tables := batch_tables c header ps in
  let D := common_den (e2e_batches c header ps) in
  let sels := sel_pairs c header isels in
  tables <> [] /\ D <> 0%N /\ Forall (fun rows => rows <> [] /\ (N.of_nat (length rows) | D)%N) tables /\
  length isels = length tables /\
  StronglySorted (fun r1 r2 : list N * list N * Q => Qle (snd r1) (snd r2)) t /\
  NoDup (map fst t) /\
  (forall a b q, In (a, b, q) t <->
     requested c header a b /\ contributing_sel c header ps sels a b <> [] /\
     q = Qmake (median2 (map (fun rows => Z.of_N (pair_num header D rows a b)) (contributing_sel c header ps sels a b))) (den_pos D)) /\
  (forall a b, requested c header a b -> requested c header b a) /\
  (forall a b, contributing_sel c header ps sels a b = contributing_sel c header ps sels b a /\
               incl (contributing_sel c header ps sels a b) tables) /\
  (forall rows a b, In rows tables ->
     Qeq (Z.of_N (pair_num header D rows a b) # npos D) (cells_cov (column header rows a) (column header rows b)) /\
     is_max_cov (column header rows a) (column header rows b) (cells_cov (column header rows a) (column header rows b))).
Proof. exact e2ecap_spec_rel. Qed.

Theorem E2Ecap_spec_constant_rel : forall c header ps isels t,
  sels_ok c header ps isels = true -> e2ecap_core_sel c header ps isels = Some t -> Combos.is_const (g_heur c) = true ->
  batch_tables c header ps <> [] /\
  NoDup (map fst t) /\
  (forall a b q, In (a, b, q) t <->
     In (a, b) (cap_cands c header) /\ (exists sel, In sel (sel_pairs c header isels) /\ In (a, b) sel) /\
     q = Qmake 0 (den_pos (common_den (e2e_batches c header ps)))).
Proof. exact e2ecap_spec_constant_rel. Qed.

(* (b) fairness for every admissible history (C07_selection_history_fair instantiated) *)
Theorem E2Ecap_fair_rel : forall c header ps isels t,
  sels_ok c header ps isels = true -> e2ecap_core_sel c header ps isels = Some t ->
  let sels := sel_pairs c header isels in
  (forall a b a' b', requested c header a b -> requested c header a' b' ->
     length (contributing_sel c header ps sels a b) <= S (length (contributing_sel c header ps sels a' b'))) /\
  (forall p q, In p (cap_cands c header) -> In q (cap_cands c header) -> nsel sels p <= S (nsel sels q)) /\
  (forall i j, In i (cap_ids (cap_cands c header)) -> In j (cap_ids (cap_cands c header)) ->
     Sampler.sel_count isels i <= S (Sampler.sel_count isels j)).
Proof. exact e2ecap_fair_rel. Qed.

(* (c) the counts the JSON must report: every candidate once with Sampler.sel_count of its id = the number of batches
   contributing to its median; C07's report checker accepts that table (C07_report_sound applies) *)
Theorem E2Ecap_counts_rel : forall c header ps isels t,
  sels_ok c header ps isels = true -> e2ecap_core_sel c header ps isels = Some t ->
  let sels := sel_pairs c header isels in
  (forall k, Sampler.get (cap_counter_sel c header isels) k = Sampler.sel_count isels k) /\
  Sampler.reportb isels (cap_counter_sel c header isels) = true /\
  (forall p n, In (p, n) (cap_counts_sel c header isels) <-> In p (cap_cands c header) /\ n = nsel sels p) /\
  map fst (cap_counts_sel c header isels) = cap_cands c header /\
  (forall p, In p (cap_cands c header) ->
     nsel sels p = Sampler.sel_count isels (Combos.pidx (cap_cands c header) p) /\
     nsel sels p = length (contributing_sel c header ps sels (fst p) (snd p))).
Proof. exact e2ecap_counts_rel. Qed.

(* (d) the deterministic model (selections computed by Sampler.step) is ONE admissible instance: E2Ecap_spec / _fair /
   _counts above are the relational statements at this instance *)
Theorem E2Ecap_sel_instance : forall c header ps,
  let isels := fst (cap_sampler c header (nbatches c header ps)) in
  sels_ok c header ps isels = true /\
  e2ecap_core_sel c header ps isels = e2ecap_core c header ps /\
  sel_pairs c header isels = cap_sels c header ps /\
  (forall a b, contributing_sel c header ps (sel_pairs c header isels) a b = contributing c header ps a b) /\
  (forall k, Sampler.sel_count isels k = Sampler.get (cap_counter c header ps) k).
Proof. exact e2ecap_sel_instance. Qed.

(* C07's boolean checker is complete for the relation (soundness is C07_checker_sound): an admissible step is never rejected *)
Theorem E2Ecap_checker_complete : forall s L cap sel s',
  Sampler.valid_step (Sampler.get s) L cap sel (Sampler.get s') -> Sampler.valid_stepb s L cap sel s' = true.
Proof. exact SamplerProofs.valid_stepb_complete. Qed.

(* (5) non-vacuity: 3 feature columns + label, 4 batches of 2 rows; target-only mode with cap 3 of 4 candidates (the
   table differs from the non-binding one), pairwise mode with cap 2 of 10 candidates (2 candidates never evaluated: absent
   from the table, 0 in the counts), Constant with cap 3 *)
Definition E2Ecap_examples := (ex_cap_binding, ex_cap_sels, ex_cap_run, ex_cap_contributing, ex_cap_changes_table, ex_cap_counts,
                               ex_cap_pairwise, ex_cap_const, ex_cap_spec_hypotheses, ex_cap_zero,
                               ex_rel_instance, ex_rel_other_ties, ex_rel_rejected).

Print Assumptions E2Ecap_spec.
Print Assumptions E2Ecap_contributing_def.
Print Assumptions E2Ecap_spec_constant.
Print Assumptions E2Ecap_fair.
Print Assumptions E2Ecap_counts.
Print Assumptions E2Ecap_nonbinding.
Print Assumptions E2Ecap_selections.
Print Assumptions E2Ecap_shuffle_independent.
Print Assumptions E2Ecap_batch_rows_instance.
Print Assumptions E2Ecap_text_run.
Print Assumptions E2Ecap_wellformed_run.
Print Assumptions E2Ecap_sels_ok_def.
Print Assumptions E2Ecap_spec_rel.
Print Assumptions E2Ecap_spec_constant_rel.
Print Assumptions E2Ecap_fair_rel.
Print Assumptions E2Ecap_counts_rel.
Print Assumptions E2Ecap_sel_instance.
Print Assumptions E2Ecap_checker_complete.
Print Assumptions E2Ecap_examples.
