(* C12 — transformations compute what their names say; degenerate ones are dropped.
   Only statements here; each is closed by [exact] of a lemma of Features/TransformProofs.v or
   Features/Transform3Proofs.v, or of a term pairing such lemmas (a C12_named theorem by [named_reading], at its
   position in the list [readings]).

   [default_table], [minimal_table], [fw_table], [registry], [resolution_range], [greater_than_range]
   (Gen/Presets.v) and the keep/drop operators and constants inside [keep_code], [parse_cell], [select]
   (Gen/TransformConstants.v) are regenerated from /repo by tools/translate_presets.py on every run, so
   these theorems are re-proved about the formulas and constants of the current source.
   [den e xs x] is the value in R of the formula e at the element x of the column xs ([None] = not a
   finite real number: numpy gives nan or +-inf); [rhe] is rounding half to even. *)
From Coq Require Import List NArith ZArith QArith Reals.
From Outrank Require Import Features.Transform Features.Transform3 Gen.Presets Gen.TransformConstants
  Features.TransformTables Features.TransformProofs Features.Transform3Proofs.
Import ListNotations.
Local Close Scope Q_scope.
Local Open Scope R_scope.

(* SCOPE OF THE FORMULA THEOREMS.  C12_fw_* and C12_named_* are exact statements over the real numbers.  The property's
   "up to floating-point rounding" is NOT proved (no floating-point error theorem; clause reported as PARTIAL): the
   check compares the implementation's doubles with an independent IEEE evaluation of the same translated tree and
   counts the cells where the doubles leave the real value.  Known divergence: _tr_log(x + sqrt(pow(x,2), 1) -- over R
   it is arcsinh x for all x (C12_named_arcsinh), in doubles it is +inf for |x| >= 1.35e154 (x^2 overflows), loses more
   than 1e-9 relative accuracy for x <= -8e3 and is -inf for x <= -3e8 (cancellation in x + sqrt(x^2+1)).  The other
   nine default formulas and the fw family involve no overflow below 1e154 and no cancellation. *)

(* ---- the fw family: the two numbers in the name determine the function ------------------- *)

(* for every kind and every (resolution, threshold) of the grids of fw_transformers.py, the table has
   an entry under the name built from the two numbers; it is the expected expression, and its meaning
   is the function [fw_named_fun kind res gt], which mentions nothing but res and gt *)
Theorem C12_fw_family : forall k res gt,
  In res resolution_range -> In gt greater_than_range ->
  exists e, lookup (fw_name k res gt) fw_table = Some e
            /\ expr_eqb e (fw_expr k res gt) = true
            /\ forall xs x, den e xs x = Some (fw_named_fun k res gt x).
Proof. exact fw_family. Qed.

(* ... spelled out: below the threshold the identity, at the threshold 0, above it
   round-half-even (f (x - thr) * res) with f = sqrt or ln; never nan *)
Theorem C12_fw_function : forall is_sqrt res thr xs x,
  den (fw_body is_sqrt res thr) xs x =
  Some (if Rltb x (Q2R thr) then x
        else if Rltb (Q2R thr) x
             then IZR (rhe ((if is_sqrt then sqrt (x - Q2R thr) else ln (x - Q2R thr)) * Q2R res))
             else 0).
Proof. exact fw_body_den. Qed.

(* the fw preset contains nothing else: default entries and the generated grid *)
Theorem C12_fw_closed : forall n e, In (n, e) fw_table ->
  (exists e', lookup n default_table = Some e' /\ expr_eqb e' e = true)
  \/ (exists k res gt, In res resolution_range /\ In gt greater_than_range
                       /\ n = fw_name k res gt /\ expr_eqb (fw_expr k res gt) e = true).
Proof. exact fw_closed. Qed.

(* ---- the names of the default preset (readings rd_* are written by hand in Transform.v) ---- *)

Theorem C12_named_sqrt : exists e, lookup nm_sqrt default_table = Some e
  /\ forall xs x, den e xs x = (if Rltb x 0 then None else Some (sqrt x)).
Proof. exact (named_reading 0 nm_sqrt rd_sqrt eq_refl). Qed.

Theorem C12_named_log_x1 : exists e, lookup nm_log_x1 default_table = Some e
  /\ forall xs x, den e xs x = (if Rltb (-1) x then Some (ln (x + 1)) else None).
Proof. exact (named_reading 1 nm_log_x1 rd_log_x1 eq_refl). Qed.

Theorem C12_named_sqrt_abs : exists e, lookup nm_sqrt_abs default_table = Some e
  /\ forall xs x, den e xs x = Some (sqrt (Rabs x)).
Proof. exact (named_reading 2 nm_sqrt_abs rd_sqrt_abs eq_refl). Qed.

Theorem C12_named_log_abs1 : exists e, lookup nm_log_abs1 default_table = Some e
  /\ forall xs x, den e xs x = Some (ln (Rabs x + 1)).
Proof. exact (named_reading 3 nm_log_abs1 rd_log_abs1 eq_refl). Qed.

(* div(x,abs(x))*log(abs(x)) = sign(x) * ln|x|, undefined at 0 *)
Theorem C12_named_sign_log : exists e, lookup nm_sign_log default_table = Some e
  /\ forall xs x, den e xs x = (if Reqb x 0 then None else Some (if Rltb 0 x then ln x else - ln (- x))).
Proof. exact (named_reading 4 nm_sign_log rd_sign_log eq_refl). Qed.

(* log(x + sqrt(pow(x,2) + 1)) = arcsinh x, defined on all of R.  Over R only: the doubles agree with this (to 1e-9
   relative) for -8e3 <= x < 1.35e154 and diverge outside (see SCOPE above); the check counts those cells. *)
Theorem C12_named_arcsinh : exists e, lookup nm_arcsinh default_table = Some e
  /\ forall xs x, den e xs x = Some (arcsinh x).
Proof. exact (named_reading 5 nm_arcsinh rd_arcsinh eq_refl). Qed.

Theorem C12_named_log_sqrt : exists e, lookup nm_log_sqrt default_table = Some e
  /\ forall xs x, den e xs x = (if Rltb x 0 then None else Some (ln (x + 1) * sqrt x)).
Proof. exact (named_reading 6 nm_log_sqrt rd_log_sqrt eq_refl). Qed.

Theorem C12_named_log100 : exists e, lookup nm_log100 default_table = Some e
  /\ forall xs x, den e xs x = (if Rltb (-1) x then Some (IZR (rhe (ln (x + 1) * 100))) else None).
Proof. exact (named_reading 7 nm_log100 rd_log100 eq_refl). Qed.

Theorem C12_named_nonzero : exists e, lookup nm_nonzero default_table = Some e
  /\ forall xs x, den e xs x = Some (if Reqb x 0 then 0 else 1).
Proof. exact (named_reading 8 nm_nonzero rd_nonzero eq_refl). Qed.

Theorem C12_named_round_div_max : exists e, lookup nm_round_div_max default_table = Some e
  /\ forall xs x, den e xs x =
       match list_max xs with
       | None => None
       | Some m => if Reqb m 0 then None else Some (IZR (rhe (x / m)))
       end.
Proof. exact (named_reading 9 nm_round_div_max rd_round_div_max eq_refl). Qed.

(* every name of the default preset is one of the ten above *)
Theorem C12_named_cover : forallb (fun n => mem n (map fst readings)) (names default_table) = true
                          /\ length readings = length default_table.
Proof. exact readings_cover. Qed.

(* minimal within default within fw-transformers, with the same meaning under the same name *)
Theorem C12_presets_nested :
  (forall n e, In (n, e) minimal_table ->
     exists e', lookup n default_table = Some e' /\ forall xs x, den e' xs x = den e xs x)
  /\ (forall n e, In (n, e) default_table ->
     exists e', lookup n fw_table = Some e' /\ forall xs x, den e' xs x = den e xs x).
Proof. exact presets_nested. Qed.

(* what [rhe] and [list_max] are *)
Theorem C12_round_half_even : forall r,
  Rabs (r - IZR (rhe r)) <= 1 / 2 /\ (Rabs (r - IZR (rhe r)) = 1 / 2 -> Z.even (rhe r) = true).
Proof. exact rhe_spec. Qed.

Theorem C12_column_max : forall xs m, list_max xs = Some m -> In m xs /\ (forall z, In z xs -> z <= m).
Proof. exact list_max_spec. Qed.

(* the conditions of np.where in the three presets compare finite quantities only, so [None] never
   has to stand for a particular one of nan / +inf / -inf *)
Theorem C12_conditions_total :
  forallb (fun kv => simple_conds (snd kv)) fw_table = true
  /\ forall e, total_expr e = true -> forall xs x, exists v, den e xs x = Some v.
Proof. exact (conj conds_simple total_den). Qed.

Local Close Scope R_scope.

(* ---- sizes (tests/fw_transformers_test.py: 138, tests/ranking_module_test.py: 10) ---------- *)
Theorem C12_sizes :
  length minimal_table = 4%nat /\ length default_table = 10%nat /\ length fw_table = 138%nat
  /\ NoDup (names minimal_table) /\ NoDup (names default_table) /\ NoDup (names fw_table).
Proof. exact sizes. Qed.

(* ---- keep / drop: the rule of the source (operators and thresholds read from it) is the rule of the
   property, in integers: more than one distinct value, most frequent value < 80 % of the rows,
   'nan' < 75 % of the rows.  (The code compares the float quotients max/n and nan/n with the doubles
   0.8 and 0.75; that these tests decide as the integer inequalities is C12_float_thresholds.) *)
Theorem C12_keep : forall l, keep_code l = true <->
  (1 < distinct l /\ 5 * maxcount l < 4 * length l /\ 4 * count nan_str l < 3 * length l)%nat.
Proof. exact keep_code_iff. Qed.

Theorem C12_keep_meaning : forall l,
  NoDup (dedup l) /\ (forall x, In x (dedup l) <-> In x l)
  /\ (forall s, In s l -> count s l <= maxcount l)%nat
  /\ (l <> [] -> exists s, In s l /\ count s l = maxcount l).
Proof.
  exact (fun l => conj (dedup_NoDup l) (conj (dedup_In l) (conj (maxcount_ge l) (maxcount_attained l)))).
Qed.

(* ---- numeric parse: the parse of the source (stripped character and value of the empty cell read from
   get_vals) is the parse of the property: the double quote is removed, the empty cell is 0, anything
   else is read as a decimal numeral ------------------------------------------------------------------ *)
Theorem C12_parse : forall s, oQeq (parse_cell s) (parse_cell_spec s).
Proof. exact parse_cell_is_spec. Qed.

Theorem C12_parse_quotes : forall s,
  parse_cell s = parse_cell (strip strip_char s)
  /\ parse_cell_spec [] = Some 0%Q
  /\ ((forall c, In c s -> c = 34%N) -> parse_cell_spec s = Some 0%Q).
Proof. exact (fun s => conj (parse_cell_strip s) (conj parse_cell_spec_empty (parse_cell_only_quotes s))). Qed.

Theorem C12_parse_digits : forall c ds, forallb is_digit (c :: ds) = true ->
  parse_float (c :: ds) = Some (inject_Z (digits_val 0 (c :: ds))).
Proof. exact parse_float_digits. Qed.

(* ---- preset lists: the union, later presets overriding ---------------------------------------- *)
Theorem C12_union : forall s tabs,
  Forall2 (fun ns t => lookup ns registry = Some t /\ t <> []) (split_on preset_separator s) tabs ->
  select s = Some (union tabs)
  /\ (forall k, lookup k (union tabs) = lookup_last k tabs)
  /\ (forall k, In k (names (union tabs)) <-> exists t, In t tabs /\ In k (names t)).
Proof. exact select_registered. Qed.

Theorem C12_union_last_wins : forall A k (ps qs : list (list (str * A))) p v,
  lookup k p = Some v -> (forall q, In q qs -> lookup k q = None) ->
  lookup k (union (ps ++ p :: qs)) = Some v.
Proof. exact union_last_wins. Qed.

Theorem C12_union_nodup : forall A (ps : list (list (str * A))),
  (forall p, In p ps -> NoDup (names p)) -> NoDup (names (union ps)).
Proof. exact NoDup_names_union. Qed.

Theorem C12_split_join : forall sep l, l <> [] -> (forall w, In w l -> ~ In sep w) ->
  split_on sep (join sep l) = l.
Proof. exact split_on_join. Qed.

(* ---- the checker the harness evaluates on the implementation's output ------------------------- *)
Theorem C12_check_sound : forall c o, C12_check c o = true -> forall n, In n o <-> In n (C12_model c).
Proof. exact check_sound. Qed.

Theorem C12_model_emitted : forall preset col rendered sel, select preset = Some sel ->
  forall n, In n (C12_model (preset, col, rendered)) <->
            exists k e l, In ((k, e), l) (combine sel rendered)
                          /\ (1 < distinct l /\ 5 * maxcount l < 4 * length l /\ 4 * count nan_str l < 3 * length l)%nat
                          /\ n = col ++ k.
Proof. exact model_emitted. Qed.

(* ---- the composition: raw cells -> numeric parse -> named formula -> text -> keep rule ---------------------- *)
(* [construct render id sel col cells]: parse every raw cell as get_vals does ([parse_cell3]: quote removed, empty = 0,
   otherwise Python's float(): blanks, sign, underscores, nan, inf), evaluate every selected formula on the parsed
   column with [den3] (real arithmetic on finite values, IEEE rules for signed zeros, nan, +-inf; no rounding, no
   overflow), turn every value into text with [render] (numpy's astype(str), abstract) and apply the keep rule to the
   text.  The property's sentence: *)
Theorem C12_emitted_iff : forall (render : gval R -> str) (sel : list (str * expr)) col cells out,
  construct render (fun e => e) sel col cells = Some out ->
  exists xs, parse_column OpsR cells = Some xs /\
  forall n, In n out <->
    exists k e txt, In (k, e) sel /\ n = col ++ k
      /\ rendered_column render e xs = Some txt
      /\ (1 < distinct txt /\ 5 * maxcount txt < 4 * length txt /\ 4 * count nan_str txt < 3 * length txt)%nat.
Proof. exact emitted_iff. Qed.

(* the statistics of the text are the statistics of the value classes (same finite number with the same zero sign /
   nan / same infinity), provided [render] is faithful on the set D of values that occur: equal text iff same class,
   "nan" iff nan.  ASSUMPTION about numpy's astype(str) on doubles (shortest round-trip repr); it cannot hold on all of
   R (countably many strings), hence the explicit domain D. *)
Theorem C12_text_classes : forall (render : gval R -> str) (D : gval R -> Prop),
  (forall a b, D a -> D b -> str_eqb (render a) (render b) = gsame OpsR a b) ->
  (forall a, D a -> str_eqb nan_str (render a) = gisnan a) ->
  forall vs, Forall D vs -> keep_spec (map render vs) = keep_by (gsame OpsR) (@gisnan R) vs.
Proof. exact keep_text_iff_classes. Qed.

(* the executable instance (arithmetic in Q; sqrt of rational squares, ln 1) computes the specification wherever it
   answers, and so does the keep decision [keepQ] the harness evaluates on raw columns *)
Theorem C12_denQ_sound : forall e xs x v,
  denQ e xs x = Some v -> den3 e (map (gmap Q2R) xs) (gmap Q2R x) = Some (gmap Q2R v).
Proof. exact denQ_sound. Qed.

Theorem C12_exact_model_sound : forall (render : gval R -> str) (D : gval R -> Prop),
  (forall a b, D a -> D b -> str_eqb (render a) (render b) = gsame OpsR a b) ->
  (forall a, D a -> str_eqb nan_str (render a) = gisnan a) ->
  forall e cells b, keepQ e cells = Some b ->
  exists xs vs, parse_column OpsR cells = Some xs
    /\ map (den3 e xs) xs = map Some vs
    /\ rendered_column render e xs = Some (map render vs)
    /\ (Forall D vs -> keep_spec (map render vs) = b).
Proof. exact keepQ_sound. Qed.

(* on finite data den3 refines den: where the formula has a real value in the sense of the C12_named / C12_fw theorems
   (every intermediate result finite), den3 yields that finite value (with some zero sign) *)
Theorem C12_den3_refines_den : forall e xs xs3 x x3 r,
  Forall2 isfin xs3 xs -> isfin x3 x -> den e xs x = Some r -> exists g, den3 e xs3 x3 = Some g /\ isfin g r.
Proof. exact den_den3. Qed.

(* ---- numeric parse, four-way (value / nan / inf / ValueError) ------------------------------------------------- *)
(* the parse with the constants of the source = the parse of the property *)
Theorem C12_parse3 : forall s, pres_eq (parse_cell_code s) (parse_cell3 s).
Proof. exact parse_cell_code_spec. Qed.

(* a specification of the parser that is not the parser: it reads every decimal numeral as Coq's own number notation
   does (N.of_uint), and it inverts the decimal printer *)
Theorem C12_parse_numeral : forall u, u <> Decimal.Nil ->
  parse_py (uint_codes u) = PVal (inject_Z (Z.of_N (N.of_uint u))) false.
Proof. exact parse_py_numeral. Qed.

Theorem C12_parse_print : forall n, parse_py (dec n) = PVal (inject_Z (Z.of_N n)) false.
Proof. exact parse_py_print. Qed.

(* for ANY rounding rn of the quotient that is monotone and has relative error <= 2^-53 (IEEE division and the
   literals 0.80, 0.75 rounded to nearest are such), and n < 2^50 rows: the float tests of the source decide exactly as
   the integer inequalities of C12_keep *)
Theorem C12_float_thresholds : forall rn : R -> R,
  (forall x y, (x <= y)%R -> (rn x <= rn y)%R) ->
  (forall x, (0 <= x)%R -> (x * (1 - / 2 ^ 53) <= rn x <= x * (1 + / 2 ^ 53))%R) ->
  forall k n : Z, (0 <= k)%Z -> (0 < n)%Z -> (n < 2 ^ 50)%Z ->
    ((rn (IZR k / IZR n) < rn (4 / 5))%R <-> (5 * k < 4 * n)%Z)
    /\ ((rn (IZR k / IZR n) < rn (3 / 4))%R <-> (4 * k < 3 * n)%Z).
Proof. exact float_thresholds. Qed.

(* the three modelled presets are keys of the vault's registry; C12_union speaks about lists over these three only
   (the registry's other keys -- extended, verbose, extended_rounded -- are outside the property and not modelled) *)
Theorem C12_registry_subset : forallb (fun n => mem n vault_registry_keys) (names registry) = true.
Proof. exact registry_subset. Qed.

Print Assumptions C12_fw_family.
Print Assumptions C12_named_arcsinh.
Print Assumptions C12_keep.
Print Assumptions C12_union.
Print Assumptions C12_emitted_iff.
Print Assumptions C12_exact_model_sound.
