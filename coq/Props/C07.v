(* C07 — capped combination sampling is fair over any sequence of batches.
   Only statements here; each is an instance of a lemma of Pipeline/SamplerProofs.v.
   [valid_step st L cap sel st'] is the relation a sampler call must satisfy whatever its
   tie-breaking; [step] is the transcription of prior_combinations_sample; [valid_stepb] is the
   boolean checker the harness evaluates on what the implementation returned. *)
From Coq Require Import List Arith ZArith.
From Outrank Require Import Pipeline.Sampler Pipeline.SamplerProofs.
Import ListNotations.

(* the transcription of the code is an instance of the relation *)
Theorem C07_step_valid : forall s L cap,
  valid_step (get s) L cap (fst (step s L cap)) (get (snd (step s L cap))).
Proof. exact step_valid. Qed.

(* the checker run on implementation histories is sound for the relation *)
Theorem C07_checker_sound : forall s L cap sel s',
  valid_stepb s L cap sel s' = true -> valid_step (get s) L cap sel (get s').
Proof. exact valid_stepb_sound. Qed.

(* every returned combination is one of the candidates *)
Theorem C07_subset : forall st L cap sel st', valid_step st L cap sel st' -> incl sel L.
Proof. exact vs_incl. Qed.

(* more candidates than the cap: exactly cap distinct candidates *)
Theorem C07_exact : forall st L cap sel st',
  NoDup L -> (0 <= cap < Z.of_nat (length L))%Z -> valid_step st L cap sel st' ->
  Z.of_nat (length sel) = cap /\ NoDup sel.
Proof. exact vs_exact. Qed.

(* ... taken from the least-evaluated ones *)
Theorem C07_least_first : forall st L cap sel st',
  NoDup L -> valid_step st L cap sel st' ->
  forall a b, In a sel -> In b L -> ~ In b sel -> st a <= st b.
Proof. exact (fun st L cap sel st' _ => vs_least_first st L cap sel st'). Qed.

(* after any number of batches over a stable duplicate-free list, with caps changing arbitrarily
   and any tie-breaking, two candidates' evaluation counts differ by at most one *)
Theorem C07_fair : forall L st, NoDup L -> reach L st ->
  forall a b, In a L -> In b L -> st a <= S (st b).
Proof. exact reach_fair. Qed.

(* the same when the storage is shared with other candidate lists that are DISJOINT from L (their steps may do
   anything to counts outside L) and does not start empty outside L *)
Theorem C07_fair_interleaved : forall L st, NoDup L -> reach_i L st ->
  forall a b, In a L -> In b L -> st a <= S (st b).
Proof. exact reach_i_fair. Qed.

(* two call sites sharing one storage keyed by the bare tuple (pre-fix 45d13a2) break fairness of L *)
Theorem C07_shared_counter_refuted :
  exists (L : list key) (st st' st'' : state),
    NoDup L /\ reach L st /\ (st' 0 = st 0 + 2) /\ valid_step st' L 0 [] st'' /\ ~ (st'' 0 <= S (st'' 1)).
Proof. exact shared_counter_refuted. Qed.

(* the reported counts are the numbers of selections, for arbitrary histories *)
Theorem C07_counts_are_selections : forall sels st, hist sels st ->
  forall k, st k = list_sum (map (fun sel => count_occ Nat.eq_dec sel k) sels).
Proof. exact hist_counts. Qed.

(* fairness of the transcription itself, and of any implementation history the checker accepted *)
Theorem C07_model_fair : forall L caps, NoDup L ->
  forall a b, In a L -> In b L -> get (run_state L caps) a <= S (get (run_state L caps) b).
Proof. exact model_fair. Qed.

Theorem C07_checked_history_fair : forall L caps obs, NoDup L ->
  valid_runb [] (map (fun c => (L, c)) caps) obs = true ->
  forall a b, In a L -> In b L ->
  get (last (map snd obs) []) a <= S (get (last (map snd obs) []) b).
Proof. exact checked_history_fair. Qed.

(* a call site judged by the selections it actually made (whatever it stored): if every step is valid against the counts the
   selections themselves imply, the numbers of selections of two candidates differ by at most one *)
Theorem C07_selection_history_fair : forall L caps sels, NoDup L ->
  valid_runb [] (map (fun c => (L, c)) caps) (derived_obs [] sels) = true ->
  forall a b, In a L -> In b L -> sel_count sels a <= S (sel_count sels b).
Proof. exact selection_history_fair. Qed.

(* a reported table accepted by [reportb] gives every combination the number of batches' selections it occurs in *)
Theorem C07_report_sound : forall sels rep, reportb sels rep = true ->
  forall k, get rep k = list_sum (map (fun sel => count_occ Nat.eq_dec sel k) sels).
Proof. exact reportb_sound. Qed.

(* the transcription with the source's constants as parameters (sort direction, cap offset, increment, initial count; read
   from core_ranking.py on every run and re-checked against this statement by a generated proof obligation) is [step] at
   the values (ascending, 0, 1, 0), and each of the four matters *)
Theorem C07_source_constants : forall s L cap, pstep false 0 1 0 s L cap = step s L cap.
Proof. exact pstep_default. Qed.

Theorem C07_source_constants_matter :
  let ops := map (fun c => ([0; 1; 2], c)) [2; 2; 2]%Z in
  valid_runb [] ops (prun false 0 1 0 [] ops) = true /\
  valid_runb [] ops (prun true 0 1 0 [] ops) = false /\
  valid_runb [] ops (prun false 1 1 0 [] ops) = false /\
  valid_runb [] ops (prun false (-1) 1 0 [] ops) = false /\
  valid_runb [] ops (prun false 0 2 0 [] ops) = false /\
  valid_runb [] ops (prun false 0 0 0 [] ops) = false /\
  valid_runb [] ops (prun false 0 1 1 [] ops) = false.
Proof. exact source_constants_matter. Qed.

Print Assumptions C07_step_valid.
Print Assumptions C07_checker_sound.
Print Assumptions C07_subset.
Print Assumptions C07_exact.
Print Assumptions C07_least_first.
Print Assumptions C07_fair.
Print Assumptions C07_fair_interleaved.
Print Assumptions C07_shared_counter_refuted.
Print Assumptions C07_counts_are_selections.
Print Assumptions C07_model_fair.
Print Assumptions C07_checked_history_fair.
Print Assumptions C07_selection_history_fair.
Print Assumptions C07_report_sound.
Print Assumptions C07_source_constants.
Print Assumptions C07_source_constants_matter.
