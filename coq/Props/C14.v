(* C14 — cardinality sketch: exact while warm, estimate beyond, duplicate-blind.
   Only statements here; each follows in a line from a lemma of Sketch/HLLProofs.v / Sketch/HLLReal.v.

   [run p W width hash l] is the state of HyperLogLogWCache after inserting the values of [l] in order
   (p index bits, warm-up capacity W = warmup_size, width constant, hash oracle: ANY function).
   [len] is what __len__ returns: [Exact n] while warm, [Est z] (the linear-counting value of z empty
   registers, int(ceil(m ln(m/z))) - 1, or 2^p for z = 0) once cold.  For the code p = 19, W = 2^18,
   width = 45 and hash = xxh32(seed = 19); nothing below depends on those values. *)
From Coq Require Import List NArith ZArith Arith Bool Permutation Reals.
From Outrank Require Import Sketch.HLL Sketch.HLLProofs Sketch.HLLReal.
Import ListNotations.

(* exact while the number of distinct values is at most the warm-up capacity *)
Theorem C14_exact : forall p W width hash l, (distinct l <= W)%nat ->
  len (run p W width hash l) = Exact (distinct l).
Proof. exact exact_len. Qed.

(* re-adding a value seen before changes nothing (the whole state, hence len), in both phases and
   exactly at the conversion boundary *)
Theorem C14_dup_blind : forall p W width hash l v, In v l ->
  len (run p W width hash (l ++ [v])) = len (run p W width hash l).
Proof. intros p W width hash l v H. now rewrite (dup_state p W width hash l v H). Qed.

Theorem C14_dup_blind_state : forall p W width hash l v, In v l ->
  run p W width hash (l ++ [v]) = run p W width hash l.
Proof. exact dup_state. Qed.

(* order of insertion is irrelevant in the exact range ... *)
Theorem C14_order_exact : forall p W width hash l l', Permutation l l' -> (distinct l <= W)%nat ->
  len (run p W width hash l) = len (run p W width hash l').
Proof. intros p W width hash l l' HP _. exact (order_len p W width hash l l' HP). Qed.

(* ... and in fact len is a function of the SET of inserted values in both phases *)
Theorem C14_len_set : forall p W width hash l l', (forall v, In v l <-> In v l') ->
  len (run p W width hash l) = len (run p W width hash l').
Proof. exact len_set. Qed.

(* after the conversion the register array is a function of the set of inserted values: the per-bucket
   maximum rank; hence order-blind and duplicate-blind there too *)
Theorem C14_regs_set : forall p W width hash l l', (forall v, In v l <-> In v l') -> (W < distinct l)%nat ->
  run p W width hash l = run p W width hash l'.
Proof. exact regs_set. Qed.

(* the conclusion is [regs_of l r] of Sketch/HLLProofs.v written out *)
Theorem C14_regs_max : forall p W width hash l, (W < distinct l)%nat ->
  exists r, run p W width hash l = Cold r /\ length r = mn p /\
            forall j, nth j r 0%N = maxrank p width hash j l.
Proof. exact cold_regs. Qed.

(* the sketch is cold exactly when more than W distinct values were inserted *)
Theorem C14_phase : forall p W width hash l r, run p W width hash l = Cold r -> (W < distinct l)%nat.
Proof. intros p W width hash l r E. exact (proj2 (run_cold_inv p W width hash l r E)). Qed.

(* a register is non-zero iff some inserted value falls in its bucket (needs rank >= 1) *)
Theorem C14_touched : forall p W width hash l r j, (forall v, (0 < rho p width hash v)%N) ->
  run p W width hash l = Cold r ->
  (nth j r 0%N <> 0%N <-> exists v, In v l /\ bucket p hash v = j).
Proof. exact touched_iff. Qed.

(* rank >= 1 holds for every 32-bit hash when width + p > 32 (the code: width = 64 - p, p = 19) *)
Theorem C14_rank_pos : forall p width hash, (p <= 32)%N -> (32 < width + p)%N ->
  (forall v, (hash v < 2 ^ 32)%N) -> forall v, (0 < rho p width hash v)%N.
Proof. exact (fun p width hash => rho_pos p width hash 32). Qed.

(* cold phase: len is the linear-counting term of  m - #touched buckets *)
Theorem C14_estimate : forall p W width hash l, (forall v, (0 < rho p width hash v)%N) ->
  (W < distinct l)%nat ->
  len (run p W width hash l) = Est (m p - N.of_nat (touched p hash l))%N.
Proof. exact estimate. Qed.

(* the machine before fix 79c2775 violates exactness and duplicate-blindness at the boundary *)
Theorem C14_prefix_refuted : exists p W width hash l v,
  In v l /\ (distinct l <= W)%nat /\ len (run_old p W width hash (l ++ [v])) <> Exact (distinct l).
Proof. exact prefix_refuted_exact. Qed.

Theorem C14_prefix_refuted_dup : exists p W width hash l v,
  In v l /\ len (run_old p W width hash (l ++ [v])) <> len (run_old p W width hash l).
Proof. exact prefix_refuted_dup. Qed.

(* "within 2 %" is a statement about the hash: for some hash (a constant one) and whatever integer
   reading [lc] of the estimate, some set of more than W values is off by more than 2 % *)
Theorem C14_hash_matters : forall p W width (lc : N -> Z), exists hash l,
  (W < distinct l)%nat /\
  ~ (50 * Z.abs (lenZ lc (run p W width hash l) - Z.of_nat (distinct l)) <= Z.of_nat (distinct l))%Z.
Proof. exact hash_matters. Qed.

(* the conditional form that IS provable: if the number of empty registers lies in the window
   m e^(-1.02 n/m) <= z <= m e^(-(0.98 n + 1)/m)  then  |len - n| <= 0.02 n  *)
Theorem C14_2pct_conditional : forall p W width hash l,
  (forall v, (0 < rho p width hash v)%N) -> (W < distinct l)%nat ->
  let n := INR (distinct l) in
  let mR := IZR (Z.of_N (2 ^ p)) in
  let z := IZR (Z.of_N (2 ^ p - N.of_nat (touched p hash l))) in
  (0 < z)%R ->
  (mR * exp (- (102 / 100 * n) / mR) <= z)%R -> (z <= mR * exp (- (98 / 100 * n + 1) / mR))%R ->
  (Rabs (lenR p (len (run p W width hash l)) - n) <= 2 / 100 * n)%R.
Proof. exact window_2pct. Qed.

(* the checker evaluated on the implementation's len() values is sound, and the model passes it.
   [clause W l1 v o1 x prev]: the value x printed after inserting v on top of l1 equals the previous one when v was
   seen before, and equals the number of distinct values while that number is at most W *)
Theorem C14_check_sound : forall W l o, forallb (fun b => b) (checkb W [] 0%Z l o) = true ->
  forall l1 v l2 o1 x o2, l = l1 ++ v :: l2 -> o = o1 ++ x :: o2 -> length o1 = length l1 ->
    clause W l1 v o1 x 0%Z.
Proof. exact check_sound. Qed.

Theorem C14_model_ok : forall p W width hash (lc : N -> Z) l,
  forallb (fun b => b) (checkb W [] 0%Z l (map (lenZ lc) (trace p W width hash (Warm []) l))) = true.
Proof. exact model_ok. Qed.

(* ---- non-vacuity: p = 3 (8 registers), capacity 4, a hash with collisions ---- *)
Definition ex_hash (v : N) : N := (v * 2654435761 mod 2 ^ 32)%N.

(* exact up to and at the boundary, also when the boundary is hit by a repeat; then cold *)
Example C14_ex_boundary :
  map (enc_len) (trace 3 4 61 ex_hash (Warm []) [5; 6; 5; 7; 8; 5; 8; 9; 9; 5; 10]%N)
  = [(0, 1); (0, 2); (0, 2); (0, 3); (0, 4); (0, 4); (0, 4); (1, 3); (1, 3); (1, 3); (1, 2)]%Z.
Proof. vm_compute. reflexivity. Qed.

(* the rank hypothesis holds for the constants of the code *)
Example C14_ex_rank : (19 <= 32)%N /\ (32 < 45 + 19)%N.
Proof. split; vm_compute; congruence. Qed.

Print Assumptions C14_exact.
Print Assumptions C14_dup_blind.
Print Assumptions C14_regs_set.
Print Assumptions C14_estimate.
Print Assumptions C14_hash_matters.
Print Assumptions C14_2pct_conditional.
