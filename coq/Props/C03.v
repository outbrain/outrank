(* C03 — the cardinality correction subtracts the displaced-copy noise floor.
   Only statements; each theorem is closed by lemmas of MI/Proofs.v, by [exact] or in one line.

   [displace Y X] reads Y at the row position advanced cyclically by the size of the row's X-group:
   (displace Y X)[i] = Y[(i + n_{X[i]}) mod n]  (MI/Spec.v);  [Hcond A X] is the textbook H(A | X).
   Proved: the exact identity and the three corollaries (constant, all-distinct, self pair).
   NOT a theorem (statistical clause, DESIGN section 3 C03 "partial"): "an informative low-cardinality feature
   outranks independent noise features of any cardinality at n >= 4000" — reported by the check only as a
   labelled supporting statistic. *)
(* The heuristic NAME -> flag clause ("with cardinality correction on (heuristic MI-numba-randomized)") is not restated here.
   Its for-all-strings form is C05_flag_only_randomized (Props/C05.v, Pipeline/DispatchProofs.v), about the GENERATED
   Gen/Dispatch.v; this file does not import it, so that C03 builds whatever the translator makes of conduct_feature_ranking.
   The C03 check holds the clause by its own run-time probe of importance_estimator.numba_mi / conduct_feature_ranking
   (every documented name) plus a sound, advisory ast reader (tools/props/c03.py, coverage.wiring_decided_by). *)
From Coq Require Import Reals List ZArith.
From Outrank Require Import Common.RSum MI.Model MI.Spec MI.Proofs.
Import ListNotations.
Open Scope R_scope.

Definition C03_case : Type := list Z * list Z.                       (* (Y, X), flag = true *)
Definition C03_model (c : C03_case) : terms := entry (fst c) (snd c) true.

Theorem C03_identity : forall Y X, length Y = length X -> (0 < length X)%nat -> Y <> X ->
  eval_R (entry Y X true) = Hcond (displace Y X) X - Hcond Y X.
Proof. exact corrected_identity. Qed.

(* the same identity for the core with the flag on, without the Y <> X hypothesis *)
Theorem C03_core_identity : forall Y X, length Y = length X -> (0 < length X)%nat ->
  eval_R (core Y X true) = Hcond (displace Y X) X - Hcond Y X.
Proof. exact core_true_identity. Qed.

Theorem C03_const : forall Y X a, length Y = length X -> (0 < length X)%nat ->
  (forall v, In v Y -> v = a) -> eval_R (entry Y X true) = 0.
Proof. exact corrected_const. Qed.

Theorem C03_alldistinct : forall Y X, length Y = length X -> (0 < length X)%nat -> NoDup Y -> Y <> X ->
  eval_R (entry Y X true) = 0.
Proof. exact corrected_alldistinct. Qed.

Theorem C03_self : forall Y, (0 < length Y)%nat -> eval_R (entry Y Y true) = H Y.
Proof. exact corrected_self. Qed.

(* the displaced copy: same length, values of Y only *)
Theorem C03_displace_shape : forall Y X, length (displace Y X) = length Y /\ incl (displace Y X) Y.
Proof. intros Y X. split; [apply displace_length|apply displace_incl]. Qed.

(* non-vacuity: the displaced copy differs from Y and changes the class counts; an all-distinct Y against a
   two-valued X; and the corrected and uncorrected scores differ as reals on a concrete pair *)
Example C03_nonvacuous :
  let Y := [0; 1; 2; 0; 1; 2; 0; 0; 1; 2]%Z in let X := [5; 5; 9; 9; 7; 7; 5; 3; 9; 9]%Z in
  length Y = length X /\ (0 < length X)%nat /\ Y <> X /\
  displace Y X = [0; 1; 0; 0; 0; 0; 2; 1; 2; 0]%Z /\
  enc (entry Y X true)
  = (10%Z, [4; 3; 3]%Z, [(3%Z, [2; 1]%Z, [1; 1; 1]%Z); (2%Z, [1; 1]%Z, [2]%Z); (4%Z, [1; 1; 2]%Z, [3; 1]%Z)], true).
Proof. cbv zeta. repeat split; try (vm_compute; discriminate). vm_compute. repeat constructor. Qed.

Example C03_alldistinct_nonvacuous :
  let Y := [4; 9; 1; 7; 3; 8]%Z in let X := [0; 1; 0; 1; 1; 0]%Z in
  length Y = length X /\ NoDup Y /\ Y <> X /\ t_strata (entry Y X true) <> [].
Proof.
  cbv zeta. repeat split; try (vm_compute; discriminate).
  repeat constructor; simpl; intuition discriminate.
Qed.

Example C03_values_differ : eval_R (core wY wX true) < eval_R (core wY wX false).
Proof. exact witness_gap. Qed.

Print Assumptions C03_identity.
Print Assumptions C03_core_identity.
Print Assumptions C03_const.
Print Assumptions C03_alldistinct.
Print Assumptions C03_self.
Print Assumptions C03_displace_shape.
