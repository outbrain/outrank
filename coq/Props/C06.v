(* C06 — the rank graph covers exactly the requested pairs, in both orientations.
   Only statements here; each is an instance of a lemma of Pipeline/CombosProofs.v.

   [candidates cols h tro label] transcribes get_combinations_from_columns (as a list, in the code's order);
   [uin (a,b) l] = the pair occurs in l in one of its two orientations (the property speaks of the SET of pairs);
   [selected_ok cands cap' sel] = sel is a sub-multiset of the candidate list of length len(cands[:cap']);
   [valid_batch cols h tro label cap rows] = rows is what one mixed_rank_graph call may return: some such selection,
   in any order (random.shuffle), with any scorer answers, assembled by the mirror loop / the Constant shortcut;
   [C06_check] is the boolean checker the harness evaluates on the implementation's candidate list and rows.
   No theorem bounds the number of columns; none needs NoDup except where stated. *)
From Coq Require Import List Arith ZArith NArith Bool Permutation Sorted.
From Outrank Require Import Pipeline.Sampler Pipeline.Combos Pipeline.CombosProofs.
Import ListNotations.

(* target-only: exactly every column paired with the label, incl. {label,label} *)
Theorem C06_target_only : forall cols h tro label,
  is_3mr h = false -> is_tonly tro = true ->
  forall a b, uin (a, b) (candidates cols h tro label) <-> In a cols /\ In b cols /\ (a = label \/ b = label).
Proof. exact cands_target_only. Qed.

(* pairwise: exactly every unordered pair of columns, incl. every column with itself *)
Theorem C06_pairwise : forall cols h tro label,
  is_3mr h = false -> is_tonly tro = false ->
  forall a b, uin (a, b) (candidates cols h tro label) <-> In a cols /\ In b cols.
Proof. exact cands_pairwise. Qed.

(* 3mr: unordered pairs over the non-relation columns, relation columns with the label only,
   and the non-label diagonal when not target-only *)
Theorem C06_3mr : forall cols h tro label,
  is_3mr h = true ->
  forall a b, uin (a, b) (candidates cols h tro label) <->
    (In a cols /\ In b cols /\ is_rel a = false /\ is_rel b = false)
    \/ (In a cols /\ is_rel a = true /\ b = label)
    \/ (a = label /\ In b cols /\ is_rel b = true)
    \/ (is_tonly tro = false /\ a = b /\ In a cols /\ a <> label).
Proof. exact cands_3mr. Qed.

(* the decidable specification used by the checker is the same set *)
Theorem C06_spec_decidable : forall cols h tro label p,
  spec_pairb cols h tro label p = true <-> uin p (candidates cols h tro label).
Proof. exact spec_pairb_iff. Qed.

(* list level (code as of b3d9d15: the diagonal list skips pairs already listed): with duplicate-free columns the candidate
   list is duplicate-free and holds one orientation of each pair, IN EVERY MODE ... *)
Theorem C06_listed_once : forall cols h tro label, NoDup cols ->
  NoDup (candidates cols h tro label) /\
  (forall a b, In (a, b) (candidates cols h tro label) -> In (b, a) (candidates cols h tro label) -> a = b).
Proof. exact cands_once. Qed.

Theorem C06_target_only_once : forall cols h tro label, NoDup cols -> is_tonly tro = true ->
  NoDup (candidates cols h tro label) /\
  (forall a b, In (a, b) (candidates cols h tro label) -> In (b, a) (candidates cols h tro label) -> a = b).
Proof. intros cols h tro label H _. exact (cands_once cols h tro label H). Qed.

(* ... hence every requested pair is listed exactly once and nothing else is listed: target-only, pairwise, and 3mr
   (non-relation pairs once, {rel,label} once, (rel,rel) once when not target-only, relation columns never with another column) *)
Theorem C06_multiplicity : forall cols h tro label p, NoDup cols ->
  ucount p (candidates cols h tro label) = if spec_pairb cols h tro label p then 1 else 0.
Proof. exact cands_multiplicity. Qed.

Theorem C06_pairwise_multiplicity : forall cols h tro label a b,
  NoDup cols -> is_3mr h = false -> is_tonly tro = false -> In a cols -> In b cols ->
  ucount (a, b) (candidates cols h tro label) = 1.
Proof. exact pairwise_multiplicity. Qed.

Theorem C06_clamp : forall h cap, is_3mr h = true -> eff_cap h cap = Z.min cap max_features_3mr.
Proof. exact eff_cap_3mr. Qed.

(* the cap: whatever the sampler's tie-breaking (C07's relation, tuples identified by any encoding injective on
   the tuples involved), the selection is a sub-multiset of the candidates of the slice's length *)
Theorem C06_selected : forall (enc : pair -> key) st cands cap' sel st',
  inj_on enc (cands ++ sel) ->
  valid_step st (map enc cands) cap' (map enc sel) st' ->
  incl sel cands /\ selected_ok cands cap' sel.
Proof. exact selected_from_sampler. Qed.

Theorem C06_selected_min : forall cands cap' sel, (0 <= cap')%Z -> selected_ok cands cap' sel ->
  length sel = Nat.min (length cands) (Z.to_nat cap').
Proof. exact selected_ok_nonneg. Qed.

(* the transcription of prior_combinations_sample on the candidate list is an instance *)
Theorem C06_transcription_selected : forall s cands cap', selected_ok cands cap' (fst (select s cands cap')).
Proof. exact select_ok. Qed.

(* scoring heuristics: the rows are exactly the evaluated triplets and their mirror images, same score *)
Theorem C06_mirrored : forall cols h tro label cap rows, is_const h = false ->
  valid_batch cols h tro label cap rows ->
  exists T, selected_ok (candidates cols h tro label) (eff_cap h cap) (map rp T)
    /\ (forall r, In r rows <-> In r T \/ In (swap3 r) T)
    /\ (forall a b s, In (a, b, s) T -> In (a, b, s) rows /\ In (b, a, s) rows)
    /\ (forall r, rcount r rows = rcount r T + rcount (swap3 r) T)
    /\ (forall r, rcount r rows = rcount (swap3 r) rows)
    /\ length rows = 2 * slice_len (length (candidates cols h tro label)) (eff_cap h cap).
Proof. exact batch_mirrored. Qed.

(* Constant: one row per selected combination, score 0, no mirror; with duplicate-free columns "lists each pair once" is
   literally true in every mode (at most one row per unordered pair), also under the reference-model filter *)
Theorem C06_constant_once : forall cols h tro label cap refs rows, is_const h = true ->
  valid_batch_ref cols h tro label cap refs rows ->
  selected_ok (ref_filter refs (candidates cols h tro label)) (eff_cap h cap) (map rp rows)
  /\ (forall r, In r rows -> snd r = 0%N)
  /\ length rows = slice_len (length (ref_filter refs (candidates cols h tro label))) (eff_cap h cap)
  /\ (NoDup cols -> forall p, ucount p (map rp rows) <= 1).
Proof. exact constant_once. Qed.

(* prior heuristics (surrogate-SGD / -SVM / -SGD-RP with a reference model JSON): [refs] = ref_names h (Some features);
   [valid_batch] is the case refs = [] *)
Theorem C06_valid_batch_no_reference : forall cols h tro label cap rows,
  valid_batch cols h tro label cap rows <-> valid_batch_ref cols h tro label cap [] rows.
Proof. exact valid_batch_is_ref_nil. Qed.

Theorem C06_ref_filter_set : forall refs cands a b,
  uin (a, b) (ref_filter refs cands) <-> uin (a, b) cands /\ ~ In a refs /\ ~ In b refs.
Proof. exact uin_ref_filter. Qed.

(* evaluated pairs are requested pairs that touch no reference feature ... *)
Theorem C06_ref_requested : forall cols h tro label cap refs rows, In label cols ->
  valid_batch_ref cols h tro label cap refs rows ->
  forall a b s, In (a, b, s) rows ->
    spec_pairb cols h tro label (a, b) = true /\ ~ In a refs /\ ~ In b refs /\ In a cols /\ In b cols.
Proof. exact batch_ref_requested. Qed.

(* ... reduced only by the cap: all clauses relative to the filtered list, and completeness when the cap does not bind *)
Theorem C06_ref_batch_spec : forall cols h tro label cap refs rows, In label cols ->
  valid_batch_ref cols h tro label cap refs rows ->
  rows_spec cols h (ref_filter refs (candidates cols h tro label)) (eff_cap h cap) rows.
Proof. exact batch_ref_rows_spec. Qed.

Theorem C06_ref_complete : forall cols h tro label cap refs rows,
  (Z.of_nat (length (ref_filter refs (candidates cols h tro label))) <= eff_cap h cap)%Z ->
  valid_batch_ref cols h tro label cap refs rows ->
  forall a b, spec_pairb cols h tro label (a, b) = true -> ~ In a refs -> ~ In b refs ->
    exists s, In (a, b, s) rows \/ In (b, a, s) rows.
Proof. exact batch_ref_complete. Qed.

(* no row mentions a column outside the frame; every row is a requested pair *)
Theorem C06_closed : forall cols h tro label cap rows, In label cols ->
  valid_batch cols h tro label cap rows ->
  forall a b s, In (a, b, s) rows -> In a cols /\ In b cols.
Proof. exact batch_closed. Qed.

Theorem C06_requested : forall cols h tro label cap rows, In label cols ->
  valid_batch cols h tro label cap rows ->
  forall a b s, In (a, b, s) rows -> spec_pairb cols h tro label (a, b) = true.
Proof. exact batch_requested. Qed.

(* all clauses at once, and the checker decides exactly them *)
Theorem C06_batch_spec : forall cols h tro label cap rows, In label cols ->
  valid_batch cols h tro label cap rows ->
  rows_spec cols h (candidates cols h tro label) (eff_cap h cap) rows.
Proof. exact batch_rows_spec. Qed.

Theorem C06_rows_checker_exact : forall cols h cands cap' rows,
  rows_okb cols h cands cap' rows = true <-> rows_spec cols h cands cap' rows.
Proof. exact rows_okb_iff. Qed.

(* the harness evaluates the same checks on column positions; on closed candidate lists they are equal *)
Theorem C06_fast_rows_checker : forall cols h cands cap' rows, closed_pairsb cols cands = true ->
  rows_okb_fast cols h cands cap' rows = rows_okb cols h cands cap' rows.
Proof. exact rows_okb_fast_eq. Qed.

Theorem C06_fast_cands_checker : forall cols h tro label cands, closed_pairsb cols cands = true ->
  cands_okb_fast cols h tro label cands = cands_okb cols h tro label cands.
Proof. exact cands_okb_fast_eq. Qed.

Theorem C06_check_sound : forall c o, In (c_label c) (c_cols c) -> C06_check c o = true ->
  (forall p, uin p (o_cands o) <-> uin p (C06_cands c))
  /\ o_cap o = eff_cap (c_heur c) (c_cap c)
  /\ Forall (rows_spec (c_cols c) (c_heur c) (ref_filter (C06_refs c) (o_cands o)) (o_cap o)) (o_rows o).
Proof. exact check_sound. Qed.

Theorem C06_model_ok : forall c scores, In (c_label c) (c_cols c) ->
  (forall e s, In (e, s) (combine (select_run [] (ref_filter (C06_refs c) (C06_cands c)) (eff_cap (c_heur c) (c_cap c)) (c_batches c)) scores) ->
               length s = length e) ->
  C06_check c (C06_model c scores) = true.
Proof. exact model_ok. Qed.

(* sorted(set(...)) in the 3mr branch does not depend on the set's iteration order *)
Theorem C06_sorted_set_canonical : forall cols l',
  StronglySorted str_le l' -> Permutation l' (dedup (filter (fun c => negb (is_rel c)) cols)) ->
  l' = non_rel_columns cols.
Proof. exact non_rel_canonical. Qed.

Print Assumptions C06_target_only.
Print Assumptions C06_pairwise.
Print Assumptions C06_3mr.
Print Assumptions C06_spec_decidable.
Print Assumptions C06_listed_once.
Print Assumptions C06_target_only_once.
Print Assumptions C06_multiplicity.
Print Assumptions C06_pairwise_multiplicity.
Print Assumptions C06_clamp.
Print Assumptions C06_selected.
Print Assumptions C06_selected_min.
Print Assumptions C06_transcription_selected.
Print Assumptions C06_mirrored.
Print Assumptions C06_constant_once.
Print Assumptions C06_valid_batch_no_reference.
Print Assumptions C06_ref_filter_set.
Print Assumptions C06_ref_requested.
Print Assumptions C06_ref_batch_spec.
Print Assumptions C06_ref_complete.
Print Assumptions C06_closed.
Print Assumptions C06_requested.
Print Assumptions C06_batch_spec.
Print Assumptions C06_rows_checker_exact.
Print Assumptions C06_fast_rows_checker.
Print Assumptions C06_fast_cands_checker.
Print Assumptions C06_check_sound.
Print Assumptions C06_model_ok.
Print Assumptions C06_sorted_set_canonical.
