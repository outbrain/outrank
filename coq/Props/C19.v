(* C19 — synthetic categorical data respects its declared shape, domains and seed.
   Only statements here; each is closed by [exact] of a lemma of Synth/DataGenProofs.v
   (C19_deterministic_partial by reflexivity).

   [generate a s] / [generate_full a s] transcribe CategoricalClassification.generate_data with
   _ordered_structure, _configure_generate_feature and _generate_feature; [s : list answer] is the
   recorded answer stream of numpy's global RNG (seed, choice, randint, shuffle calls in program
   order).  The model checks the assumed library behaviour on every answer and returns [Err _] when
   an answer violates it, when the stream does not have the shape of the code's call pattern, or
   when the real code raises (empty domain, an index described twice, a column index beyond
   n_features).

   STATED PRECONDITION (int32).  The code does NOT raise on values outside int32: `astype('int32')`
   wraps them silently ([3000000000, 1] -> [-1294967296, 1]).  The model does not follow the code
   there: it returns [Err 9] as soon as a value outside int32 would reach the data set
   (DataGenProofs.ex_out_of_int32).  So every theorem below with hypothesis
   [generate_full a s = Ok _] speaks only about runs all of whose generated values lie inside int32
   (made explicit as the conjunct [in_int32 v = true] of C19_shape and as the int32 hypothesis of
   C19_progress); for other argument sets nothing is claimed ("32-bit integers from the declared
   domain" is unsatisfiable for them) and the harness only counts them.

   The theorems hold for EVERY stream on which the model succeeds; C19_progress shows that is
   every stream respecting numpy's contract, for valid arguments. *)
From Coq Require Import List Arith ZArith Bool.
From Outrank Require Import Synth.DataGen Synth.DataGenProofs.
Import ListNotations.
Open Scope Z_scope.

(* n_samples rows, n_features columns, every cell a 32-bit integer *)
Theorem C19_shape : forall a s X doms, generate_full a s = Ok (X, doms) ->
  length X = n_samples a /\
  forall row, In row X -> length row = n_features a /\ forall v, In v row -> in_int32 v = true.
Proof. exact run_shape. Qed.

(* every cell of column j lies in domain j, and domain j is what the j-th generated feature
   declares ([dom_ok]): the explicit value list; arange(low, low+cardinality); or, with
   random_values, a duplicate-free draw of exactly `cardinality` values within [low, high] *)
Theorem C19_domain : forall a s X doms, generate_full a s = Ok (X, doms) ->
  exists specs, layout a = Ok specs /\ length doms = n_features a /\
  forall j, (j < n_features a)%nat ->
    dom_ok a (nth j specs (dflt a)) (nth j doms []) /\
    forall i, (i < n_samples a)%nat -> In (cell X i j) (nth j doms []).
Proof. exact run_domain. Qed.

(* every index described once and < n_features, IN ANY ORDER ([wf_structure]; single indices, index
   lists, interleaved entries): column j carries exactly the feature declared for j (the default
   feature where nothing is declared).  An index described twice makes the code raise ValueError. *)
Theorem C19_positions : forall a, wf_structure a = true ->
  layout a = Ok (map (declared a) (seq 0 (n_features a))).
Proof. exact layout_wf. Qed.

Theorem C19_positions_at : forall a i at_, wf_structure a = true ->
  In (i, at_) (flat (structure a)) ->
  exists specs, layout a = Ok specs /\ (i < n_features a)%nat /\ nth i specs (dflt a) = at_.
Proof. exact layout_positions. Qed.

Theorem C19_positions_default : forall a j, wf_structure a = true -> (j < n_features a)%nat ->
  ~ In j (map fst (flat (structure a))) ->
  exists specs, layout a = Ok specs /\ nth j specs (dflt a) = dflt a.
Proof. exact layout_default. Qed.

Theorem C19_positions_duplicates_rejected : forall a,
  ~ NoDup (map fst (flat (structure a))) -> layout a = Err 21.
Proof. exact layout_rejects_duplicates. Qed.

(* the behaviour before fix 70b449e (entries processed in the order given, [layout_old]): a
   well-formed but unsorted structure mis-placed a declared feature *)
Theorem C19_positions_unsorted_prefix_refuted :
  exists a i at_ specs,
    In (i, at_) (flat (structure a)) /\ wf_structure a = true /\
    layout_old a = Ok specs /\ nth i specs (dflt a) <> at_.
Proof. exact positions_unsorted_prefix_refuted. Qed.

(* ensure_rep: whenever the sample count allows (|domain| <= n_samples), every domain value occurs *)
Theorem C19_ensure_rep : forall a s X doms, generate_full a s = Ok (X, doms) ->
  ensure_rep a = true ->
  forall j, (j < n_features a)%nat -> (length (nth j doms []) <= n_samples a)%nat ->
  forall v, In v (nth j doms []) -> exists i, (i < n_samples a)%nat /\ cell X i j = v.
Proof. exact run_ensure_rep. Qed.

(* the behaviour before fix 31e7d2c (`len(vec) < size`): n_samples = |domain| and a value missing *)
Theorem C19_ensure_rep_prefix_refuted :
  exists a s X doms,
    generate_full_old a s = Ok (X, doms) /\ ensure_rep a = true /\
    exists j v, (j < n_features a)%nat /\ (length (nth j doms []) <= n_samples a)%nat /\
                In v (nth j doms []) /\ forall i, (i < n_samples a)%nat -> cell X i j <> v.
Proof. exact ensure_rep_prefix_refuted. Qed.

(* PARTIAL (seed clause).  Proved: the data set is a function of the arguments once the answer stream
   after np.random.seed(s) is a function [rng] of s, and a successful run's stream starts with
   np.random.seed(seed a) (C19_seeded), so the generator state before the call is irrelevant.
   NOT proved (oracle assumption, made explicit as the quantified [rng]; tested on the real code by
   three runs from different generator states): that numpy's stream after seed(s) is a function of s. *)
Theorem C19_deterministic_partial : forall (rng : Z -> list answer) a a', a = a' ->
  generate a (RSeed (seed a) :: rng (seed a)) = generate a' (RSeed (seed a') :: rng (seed a')).
Proof. intros rng a a' ->. reflexivity. Qed.

Theorem C19_seeded : forall a s X, generate a s = Ok X -> exists s1, s = RSeed (seed a) :: s1.
Proof. exact generate_seeded. Qed.

(* the calls a successful run made are exactly [call_pattern a], in that order *)
Theorem C19_call_pattern : forall a s X doms, generate_full a s = Ok (X, doms) ->
  map kind_of s = call_pattern a.
Proof. exact run_pattern. Qed.

(* progress: valid arguments ([layout] defined; in particular every well-formed structure) and a
   stream respecting numpy's contract ([cols_stream]: replace=False draws are duplicate-free, of the
   requested size, within [low, high]; randint(n) in [0, n); choice(vec, size, p) returns `size`
   elements of vec; shuffle permutes; given frequencies are acceptable to choice), domains inside
   int32: the model succeeds, with exactly those domains *)
Theorem C19_progress : forall a specs doms s1,
  layout a = Ok specs -> cols_stream a specs doms s1 ->
  (forall dom, In dom doms -> forall v, In v dom -> in_int32 v = true) ->
  exists X, generate_full a (RSeed (seed a) :: s1) = Ok (X, doms).
Proof. exact generate_progress. Qed.

Theorem C19_progress_wf : forall a doms s1, wf_structure a = true ->
  cols_stream a (map (declared a) (seq 0 (n_features a))) doms s1 ->
  (forall dom, In dom doms -> forall v, In v dom -> in_int32 v = true) ->
  exists X, generate_full a (RSeed (seed a) :: s1) = Ok (X, doms).
Proof. exact generate_progress_wf. Qed.

(* the validator evaluated on implementation outputs: sound for the property's clauses (for every
   structure the layout accepts; for well-formed ones the layout is the declared one), and accepted
   by every successful model run *)
Theorem C19_check_sound : forall a X, valid_dataset a X = true ->
  length X = n_samples a /\
  (forall row, In row X -> length row = n_features a /\ forall v, In v row -> in_int32 v = true) /\
  exists specs, layout a = Ok specs /\
    (forall j, (j < n_features a)%nat -> col_prop a (nth j specs (dflt a)) (column X j)) /\
    (wf_structure a = true -> forall j, (j < n_features a)%nat -> nth j specs (dflt a) = declared a j).
Proof. exact valid_dataset_sound. Qed.

Theorem C19_model_ok : forall a s X, generate a s = Ok X -> valid_dataset a X = true.
Proof. exact model_passes_validator. Qed.

(* naive generator: label = 1 iff the DRAWN needle value (column 30) is >= 40; needs
   num_features >= 31; the returned sample's needle column is overwritten by the label (view
   semantics), every other cell is the drawn one *)
Theorem C19_naive : forall nf size s sample target,
  naive nf size s = Ok (sample, target) ->
  exists m, s = [RRandintMat m] /\ (needle < nf)%nat /\ length m = size /\
    target = map (fun r => if 40 <=? nth needle r 0 then 1 else 0) m /\
    length sample = size /\
    forall i, (i < size)%nat ->
      length (nth i sample []) = nf /\
      nth needle (nth i sample []) 0 = nth i target 0 /\
      forall j, j <> needle -> nth j (nth i sample []) 0 = nth j (nth i m []) 0.
Proof. exact naive_spec. Qed.

Theorem C19_naive_needle_only : forall nf size nf' size' m m' sa t sa' t',
  naive nf size [RRandintMat m] = Ok (sa, t) -> naive nf' size' [RRandintMat m'] = Ok (sa', t') ->
  map (fun r => nth needle r 0) m = map (fun r => nth needle r 0) m' -> t = t'.
Proof. exact naive_needle_only. Qed.

(* fewer than 31 features: sample[:, 30] raises *)
Theorem C19_naive_precondition : forall nf size s, (nf <= needle)%nat -> exists e, naive nf size s = Err e.
Proof. exact naive_small. Qed.

(* data.csv of --task data_generator: each row = the sample row followed by its label *)
Theorem C19_csv_rows : forall sample target i, length sample = length target -> (i < length sample)%nat ->
  length (csv_rows sample target) = length sample /\
  nth i (csv_rows sample target) [] = nth i sample [] ++ [nth i target 0].
Proof. exact csv_rows_spec. Qed.

Print Assumptions C19_shape.
Print Assumptions C19_domain.
Print Assumptions C19_positions.
Print Assumptions C19_positions_at.
Print Assumptions C19_positions_default.
Print Assumptions C19_positions_duplicates_rejected.
Print Assumptions C19_positions_unsorted_prefix_refuted.
Print Assumptions C19_ensure_rep.
Print Assumptions C19_ensure_rep_prefix_refuted.
Print Assumptions C19_deterministic_partial.
Print Assumptions C19_seeded.
Print Assumptions C19_call_pattern.
Print Assumptions C19_progress.
Print Assumptions C19_progress_wf.
Print Assumptions C19_check_sound.
Print Assumptions C19_model_ok.
Print Assumptions C19_naive.
Print Assumptions C19_naive_needle_only.
Print Assumptions C19_naive_precondition.
Print Assumptions C19_csv_rows.
