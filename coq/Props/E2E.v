(* E2E — the ranking task end to end, for the exact heuristic `max-value-coverage` and for `Constant`.
   Only statements here; each is closed by [exact] of a lemma of E2E/*Proofs.v or E2E/MedianRep.v (E2E_cap_nonbinding: with
   CombosProofs.selected_ok_full).  The model E2E/Compose.v is a COMPOSITION of the layer models, imported unchanged:

     text --phys_lines, csv_raw_header, Csv.parse (C16)--> header, parsed lines
          --Stream.batches: every s-th line, field-count test, batches of B, tail rule (C08)--> batches of rows
          --RankGraph.codes / orient / eval_pair (C05), Combos.candidates / build_rows (C06)--> rows per batch
          --Aggregate.aggregate = median2 per ordered pair, final_sort (C08)--> table

   Vocabulary (E2E/Compose.v, RowsProofs.v, CovProofs.v, ComposeProofs.v):
   [e2e_run c text] / [e2e_core c header ps]   the table, or None (outside the fragment / no batch processed);
   [batch_tables c header ps]                  the parsed rows of every processed batch, in order;
   [common_den ...] = D                        lcm of the batch sizes (scores are kept as numerators over D);
   [column header rows x]                      the cells of column x of a batch (header position of x);
   [pair_num header D rows a b]                the batch score of (a, b) as a numerator over D;
   [cells_cov xs ys]                           max joint-value frequency / n as a rational (C05's maxcov on the codes);
   [is_max_cov xs ys q]                        q is attained by an occurring joint value (u, v) as n_uv / n and bounds all of them
                                               (n_uv counted positionally on the CELLS);
   [requested c header a b]                    a, b header columns and, in target-only mode, one of them is the label;
   [median2]                                   twice the median (Common/Median.v, C08_median2_meaning);
   emitted score                               median2 (numerators) # (2 * D). *)
From Coq Require Import List NArith ZArith QArith Bool Arith Permutation Sorting.Sorted.
From Outrank Require Import IO.Str IO.StrProofs.
From Outrank Require IO.Csv IO.CsvProofs IO.Accept.
From Outrank Require Import Common.Median.
From Outrank Require Pipeline.Stream.
From Outrank Require Import Pipeline.Aggregate Pipeline.RankGraph.
From Outrank Require Pipeline.Sampler Pipeline.Combos Pipeline.CombosProofs.
From Outrank Require Import E2E.Compose E2E.CovProofs E2E.MedianRep E2E.RowsProofs E2E.ComposeProofs E2E.FileProofs
  E2E.ShuffleProofs E2E.SpecProofs E2E.Examples.
Import ListNotations.

(* ---------------------------------------------------------------------------------------------------------- *)
(* THE composition theorem.  If the task produces a table for max-value-coverage, then:
   at least one batch was processed; the table is ascending in score; it has one row per ordered pair; its pairs
   are EXACTLY the pairs requested by the mode, in both orientations, and nothing else; the score of (a, b) is the
   median over the processed batches of the batch scores; and each batch score is the exact maximal joint-value
   frequency n_uv / n of the two columns of cells of THAT batch (the rows of the batches: E2E_batches). *)
Theorem E2E_spec : forall c header ps t,
  e2e_core c header ps = Some t -> Combos.is_const (g_heur c) = false ->
  let tables := batch_tables c header ps in
  let D := common_den (e2e_batches c header ps) in
  tables <> [] /\ D <> 0%N /\ Forall (fun rows => rows <> [] /\ (N.of_nat (length rows) | D)%N) tables /\
  StronglySorted (fun r1 r2 : list N * list N * Q => Qle (snd r1) (snd r2)) t /\
  NoDup (map fst t) /\
  (forall a b q, In (a, b, q) t <->
     requested c header a b /\
     q = Qmake (median2 (map (fun rows => Z.of_N (pair_num header D rows a b)) tables)) (den_pos D)) /\
  (forall a b, requested c header a b -> requested c header b a) /\
  (forall rows a b, In rows tables ->
     Qeq (Z.of_N (pair_num header D rows a b) # npos D) (cells_cov (column header rows a) (column header rows b)) /\
     is_max_cov (column header rows a) (column header rows b) (cells_cov (column header rows a) (column header rows b))).
Proof. exact e2e_spec. Qed.

(* Constant: exactly C06's candidate list (each pair once, in the listed orientation, which covers exactly the
   requested unordered pairs), every score 0 *)
Theorem E2E_spec_constant : forall c header ps t,
  e2e_core c header ps = Some t -> Combos.is_const (g_heur c) = true ->
  batch_tables c header ps <> [] /\
  NoDup (map fst t) /\
  (forall a b q, In (a, b, q) t <->
     In (a, b) (cands_of c header) /\ q = Qmake 0 (den_pos (common_den (e2e_batches c header ps)))) /\
  (forall a b, CombosProofs.uin (a, b) (cands_of c header) <-> requested c header a b).
Proof. exact e2e_spec_constant. Qed.

(* the two modes (C06_target_only, C06_pairwise) *)
Theorem E2E_requested_pairs : forall c header a b,
  (Combos.is_tonly (g_tro c) = true ->
     (requested c header a b <-> In a header /\ In b header /\ (a = g_label c \/ b = g_label c))) /\
  (Combos.is_tonly (g_tro c) = false -> (requested c header a b <-> In a header /\ In b header)).
Proof. exact requested_pairs. Qed.

(* which rows make up the batches (C08_batches instantiated; C16's validity test): with
   sel_lines = the lines at 1-based positions divisible by s, good_lines = those whose field count is the header's,
   the batches are the full chunks of B good lines plus the remainder iff it has MORE than 1024 lines; every line of a
   batch was parsed without error, has the header's field count, and contributes its parsed cells *)
Theorem E2E_batches : forall c header ps, (0 < g_B c)%N ->
  e2e_batches c header ps =
    (let g := good_lines c header ps in let B := N.to_nat (g_B c) in
     fst (Stream.chunks B g) ++
     (if (Stream.tail_min <? length (snd (Stream.chunks B g)))%nat then [snd (Stream.chunks B g)] else [])) /\
  (crashes c ps = false -> forall b l, In b (e2e_batches c header ps) -> In l b ->
     N.modulo (fst l) (g_s c) = 0%N /\ (1 <= fst l)%N /\
     exists fs, nth (N.to_nat (N.pred (fst l))) ps None = Some fs /\ length fs = length header /\ row_at ps (fst l) = fs).
Proof. exact e2e_batches_rows. Qed.

(* the composition IS C08's loop run with the composed scorer: the rows the model aggregates are the rows the
   transcribed streaming loop accumulates *)
Theorem E2E_loop : forall c header ps, (0 < g_B c)%N ->
  let D := common_den (e2e_batches c header ps) in
  all_rows c header ps =
  Stream.all_rows (fun b => map (to_agg header) (batch_triplets c header D (batch_rows ps b))) (fun _ => tt)
                  (stream_cfg c header) (abs_lines ps).
Proof. exact all_rows_is_loop. Qed.

(* the rows of one batch are C05's rank_rows (orientation, scorer applied to the codes) on C06's candidates *)
Theorem E2E_batch_rows : forall c header D rows, Combos.is_const (g_heur c) = false ->
  batch_triplets c header D rows = rank_rows (cov_num D) (frame_of header rows) (g_label c) (cands_of c header).
Proof. exact batch_triplets_rank_rows. Qed.

(* one batch, one pair: the score is the exact coverage of the two cell columns (any admissible scaling D) *)
Theorem E2E_batch_score_exact : forall header D rows a b,
  rows <> [] -> (N.of_nat (length rows) | D)%N -> D <> 0%N ->
  Qeq (Z.of_N (pair_num header D rows a b) # npos D) (cells_cov (column header rows a) (column header rows b)) /\
  is_max_cov (column header rows a) (column header rows b) (cells_cov (column header rows a) (column header rows b)).
Proof. exact batch_score_exact. Qed.

(* the specification determines the value, and the conditioning side does not matter for the coverage *)
Theorem E2E_max_cov_unique : forall xs ys q1 q2, is_max_cov xs ys q1 -> is_max_cov xs ys q2 -> Qeq q1 q2.
Proof. exact is_max_cov_unique. Qed.
Theorem E2E_max_cov_symmetric : forall xs ys q, length xs = length ys -> is_max_cov xs ys q -> is_max_cov ys xs q.
Proof. exact is_max_cov_sym. Qed.

(* each batch's score depends only on that batch's rows *)
Theorem E2E_batch_split_scores : forall header rows a b D1 D2,
  rows <> [] -> (N.of_nat (length rows) | D1)%N -> D1 <> 0%N -> (N.of_nat (length rows) | D2)%N -> D2 <> 0%N ->
  Qeq (Z.of_N (pair_num header D1 rows a b) # npos D1) (Z.of_N (pair_num header D2 rows a b) # npos D2).
Proof. exact batch_split_scores. Qed.

(* a score recorded m times per batch has the same median (m = 1, and m = 2 for a self pair, whose mirror row carries
   the same ordered pair; the lemma does not depend on the candidate list's multiplicities) *)
Theorem E2E_median_replicate : forall m l, (0 < m)%nat -> median2 (replicate m l) = median2 l.
Proof. exact median2_replicate. Qed.

(* the model's linear-time maximum is C05's maxfreq *)
Theorem E2E_maxfreq_fast : forall l, maxfreq_fast l = maxfreq peqb l.
Proof. exact maxfreq_fast_eq. Qed.

(* ---------------------------------------------------------------------------------------------------------- *)
(* the text layer *)

(* the run on a text is the run on (header, parsed physical lines), and csv.reader never raises on a physical line of at
   most csv.field_size_limit() = 131072 characters (terminator included; a longer FIELD raises, C16_csv_limit_exceeded:
   such files are outside the fragment, the model then answers None = "the task raises") *)
Theorem E2E_text_run : forall c text,
  e2e_run c text = e2e_core c (Accept.csv_raw_header text) (map Csv.parse (tl (phys_lines text))) /\
  (Forall (fun ln => (N.of_nat (length ln) <= Csv.field_limit)%N) (tl (phys_lines text)) ->
   crashes c (map Csv.parse (tl (phys_lines text))) = false).
Proof. exact text_run. Qed.

Theorem E2E_no_csv_error : forall c text, short_lines text -> crashes c (parse_lines text) = false.
Proof. exact no_csv_error. Qed.

(* a file rendered by the model's writer from a header and a table of cells without line breaks, each of at most
   csv.field_size_limit() characters (flen_ok), is read back as exactly that header and that table (malformed rows
   included: they are rows of another length) *)
Theorem E2E_wellformed_file : forall (names : list (list N)) (rows : list (list (list N))),
  names <> [] ->
  Forall (none (fun ch => (ch =? COMMA)%N || is_nl ch)) names ->
  edge_clean (join_with [COMMA] names) ->
  Forall (fun r => r <> [] /\ Forall (none is_nl) r) rows ->
  Forall (Forall CsvProofs.flen_ok) rows ->
  header_of (render_file names rows) = names /\ parse_lines (render_file names rows) = map Some rows.
Proof. exact wellformed_file. Qed.

(* ... so the run, and with it E2E_spec, is a statement about the TABLE *)
Theorem E2E_wellformed_run : forall c (names : list (list N)) (rows : list (list (list N))),
  names <> [] -> Forall (none (fun ch => (ch =? COMMA)%N || is_nl ch)) names -> edge_clean (join_with [COMMA] names) ->
  Forall (fun r => r <> [] /\ Forall (none is_nl) r) rows -> Forall (Forall CsvProofs.flen_ok) rows ->
  e2e_run c (render_file names rows) = e2e_core c names (map Some rows).
Proof. exact wellformed_run. Qed.

(* ---------------------------------------------------------------------------------------------------------- *)
(* determinism: the sampler's counter and random.shuffle do not reach the table *)

(* cap not binding: ANY selection allowed by C06/C07's relation is the whole candidate list up to order *)
Theorem E2E_cap_nonbinding : forall cands cap,
  (Z.of_nat (length cands) <= cap)%Z ->
  (forall sel, CombosProofs.selected_ok cands cap sel -> Permutation sel cands) /\
  (forall s : Sampler.al, Permutation (fst (Combos.select s cands cap)) cands).
Proof. exact (fun cands cap H => conj (fun sel => CombosProofs.selected_ok_full cands cap sel H) (fun s => cap_nonbinding cands cap s H)). Qed.

(* whatever the sampler states and the shuffles of the individual batches, the aggregated sorted table is the model's *)
Theorem E2E_shuffle_sampler_independent : forall c header ps (states : list Sampler.al) (evl : list (list Combos.pair)),
  (Z.of_nat (length (cands_of c header)) <= g_cap c)%Z ->
  length evl = length (e2e_batches c header ps) ->
  Forall2 (fun s ev => Permutation ev (fst (Combos.select s (cands_of c header) (g_cap c)))) states evl ->
  final_table (all_rows_ev c header ps evl) = final_table (all_rows c header ps).
Proof. exact sampler_shuffle_independent. Qed.

Theorem E2E_deterministic : forall c header ps (st1 st2 : list Sampler.al) (evl1 evl2 : list (list Combos.pair)),
  (Z.of_nat (length (cands_of c header)) <= g_cap c)%Z ->
  length evl1 = length (e2e_batches c header ps) -> length evl2 = length (e2e_batches c header ps) ->
  Forall2 (fun s ev => Permutation ev (fst (Combos.select s (cands_of c header) (g_cap c)))) st1 evl1 ->
  Forall2 (fun s ev => Permutation ev (fst (Combos.select s (cands_of c header) (g_cap c)))) st2 evl2 ->
  final_table (all_rows_ev c header ps evl1) = final_table (all_rows_ev c header ps evl2).
Proof. exact deterministic. Qed.

(* non-vacuity: a small file with a quoted comma and a malformed line, both modes, Constant, the tail rule at
   1024 / 1025 rows, sub-sampling; the hypotheses of E2E_spec and E2E_wellformed_file are satisfiable *)
Definition E2E_examples := (ex_text_is_rendered, ex_run, ex_run_pairwise, ex_run_cap_binding, ex_run_const, ex_wellformed,
                            ex_run_over_table, ex_spec_hypotheses, tail_1024_no_batch, tail_1025_one_batch, subsample_2).

Print Assumptions E2E_spec.
Print Assumptions E2E_spec_constant.
Print Assumptions E2E_requested_pairs.
Print Assumptions E2E_batches.
Print Assumptions E2E_loop.
Print Assumptions E2E_batch_rows.
Print Assumptions E2E_batch_score_exact.
Print Assumptions E2E_max_cov_unique.
Print Assumptions E2E_max_cov_symmetric.
Print Assumptions E2E_batch_split_scores.
Print Assumptions E2E_median_replicate.
Print Assumptions E2E_maxfreq_fast.
Print Assumptions E2E_text_run.
Print Assumptions E2E_no_csv_error.
Print Assumptions E2E_wellformed_file.
Print Assumptions E2E_wellformed_run.
Print Assumptions E2E_cap_nonbinding.
Print Assumptions E2E_shuffle_sampler_independent.
Print Assumptions E2E_deterministic.
Print Assumptions E2E_examples.
