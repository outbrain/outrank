(* C17 — the 3MR ranking is a greedy-optimal permutation of the features.
   Only statements here; each is closed by lemmas of Rank/ThreeMRProofs.v and Rank/QMedianProofs.v.
   [inst] = the three dictionaries + strategy + alpha + beta (all universally quantified, so every theorem
   holds for each of median / mean / sum and for every alpha, beta, in particular alpha, beta >= 0);
   [ranking] = transcription of rank_features_3MR; [ranking_df] = its (Feature, 3MR_Ranking) data frame;
   [spec_3mr d r] = the property's four clauses for an arbitrary data frame r (whatever the tie-breaking);
   [valid_3mr] = the boolean validator the harness evaluates on the implementation's data frame. *)
From Coq Require Import List QArith ZArith NArith Permutation Sorting.Sorted.
From Outrank Require Import Rank.QMedian Rank.QMedianProofs Rank.ThreeMR Rank.ThreeMRProofs.
Import ListNotations.
Open Scope Q_scope.

(* every feature exactly once *)
Theorem C17_perm : forall d, Permutation (ranking d) (feats d) /\ NoDup (ranking d).
Proof. exact ranking_perm. Qed.

(* ... where the features are the keys of the relevance dictionary *)
Theorem C17_feats_are_keys : forall d,
  (forall f, In f (feats d) <-> In f (map fst (rel d))) /\
  (NoDup (map fst (rel d)) -> feats d = map fst (rel d)).
Proof. intros d. split; [apply feats_keys|apply nodup_fixed_point]. Qed.

(* starts with a feature of maximal relevance *)
Theorem C17_first_max : forall d f0, nth_error (ranking d) 0 = Some f0 ->
  forall g, In g (feats d) -> relv d g <= relv d f0.
Proof. exact ranking_head. Qed.

(* at every later position k the placed feature maximises
   relevance - alpha * agg(redundancy with the prefix) + beta * agg(relation with the prefix) over the remaining ones *)
Theorem C17_step : forall d k f, (0 < k)%nat -> nth_error (ranking d) k = Some f ->
  forall g, In g (feats d) -> ~ In g (firstn k (ranking d)) ->
  score d (firstn k (ranking d)) g <= score d (firstn k (ranking d)) f.
Proof. exact ranking_step. Qed.

(* ranks are 1..n in list order *)
Theorem C17_ranks : forall d,
  map fst (ranking_df d) = ranking d /\
  map snd (ranking_df d) = ranks (length (ranking_df d)) /\
  forall k f z, nth_error (ranking_df d) k = Some (f, z) -> z = Z.of_nat (S k).
Proof. intros d. split; [apply ranking_df_fst|]. split; [apply ranking_df_snd|apply model_ranks]. Qed.

(* the validator decides exactly the four clauses ... *)
Theorem C17_valid_iff : forall d r, valid_3mr d r = true <-> spec_3mr d r.
Proof. exact valid_3mr_iff. Qed.

(* ... and accepts the transcription's output, for every instance *)
Theorem C17_model_valid : forall d, valid_3mr d (ranking_df d) = true.
Proof. exact model_valid. Qed.

Theorem C17_check_sound : forall c o, C17_check c o = true -> spec_3mr c o.
Proof. intros c o. apply valid_3mr_iff. Qed.
Theorem C17_model_ok : forall c, C17_check c (C17_model c) = true.
Proof. exact model_valid. Qed.

(* what the ingredients of [score] mean *)
Theorem C17_score_def : forall d p f,
  score d p f = relv d f - alpha d * agg (strat d) (map (fun r => get2 (red d) r f) p)
                         + beta d * agg (strat d) (map (fun r => get2 (rln d) r f) p).
Proof. reflexivity. Qed.

Theorem C17_agg_sum : forall l, agg Sum l = fold_right Qplus 0 l.
Proof. reflexivity. Qed.
Theorem C17_agg_mean : forall l, agg Mean l = fold_right Qplus 0 l / inject_Z (Z.of_nat (length l)).
Proof. reflexivity. Qed.
Theorem C17_agg_median : forall l, exists s, Permutation s l /\ StronglySorted Qle s /\
  agg Median l = if Nat.even (length l) then (nth (length l / 2 - 1) s 0 + nth (length l / 2) s 0) / 2
                 else nth (length l / 2) s 0.
Proof. exact qmedian_spec. Qed.

(* missing pairs count as 0, present ones give their value (looked up as (ranked, candidate)) *)
Theorem C17_missing_zero : forall t a b,
  (forall a' b' v, In (a', b', v) t -> a' <> a \/ b' <> b) -> get2 t a b = 0.
Proof. exact get2_missing. Qed.
Theorem C17_present : forall t a b v, NoDup (map fst t) -> In (a, b, v) t -> get2 t a b = v.
Proof. exact get2_present. Qed.

(* the caller (task_ranking.py): [build_inst lbl T = Some d] iff no non-empty table (relevance / relation / redundancy rows of
   the triplets) has min = max — there the code's float normalisation is 0/0 = NaN and no instance exists.  When it exists it is
   an instance like any other, so the ranking written to 3mr_ranks.tsv satisfies the clauses; the ranked features are exactly
   the plain (non AND_REL) columns other than the label that have a (feature, label) triplet *)
Theorem C17_caller_valid : forall lbl T d, build_inst lbl T = Some d -> spec_3mr d (ranking_df d).
Proof. intros. apply model_spec. Qed.
Theorem C17_caller_feats : forall lbl T d f, build_inst lbl T = Some d ->
  (In f (feats d) <-> f <> lbl /\ exists s, In (Plain f, Plain lbl, s) T).
Proof. exact caller_feats. Qed.
Theorem C17_caller_degenerate : forall lbl T, build_inst lbl T = None <->
  degenerate (map snd (relevance_rows lbl T)) = true \/ degenerate (map snd (relation_rows lbl T)) = true
  \/ degenerate (map snd (redundancy_rows lbl T)) = true.
Proof. exact caller_none. Qed.
Theorem C17_degenerate_iff : forall l, degenerate l = true <-> l <> [] /\ qmin l == qmax l.
Proof. exact degenerate_iff. Qed.

Print Assumptions C17_perm.
Print Assumptions C17_feats_are_keys.
Print Assumptions C17_first_max.
Print Assumptions C17_step.
Print Assumptions C17_ranks.
Print Assumptions C17_valid_iff.
Print Assumptions C17_model_valid.
Print Assumptions C17_check_sound.
Print Assumptions C17_model_ok.
Print Assumptions C17_score_def.
Print Assumptions C17_agg_sum.
Print Assumptions C17_agg_mean.
Print Assumptions C17_agg_median.
Print Assumptions C17_missing_zero.
Print Assumptions C17_present.
Print Assumptions C17_caller_valid.
Print Assumptions C17_caller_feats.
Print Assumptions C17_caller_degenerate.
Print Assumptions C17_degenerate_iff.
