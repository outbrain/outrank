(* C16 — line parsers keep every field in its column and never mis-align.
   Only statements here; each is closed by [exact] of a lemma of IO/*Proofs.v (C16_generic_dispatch by computation).
   Strings are lists of Unicode code points (N).  Models (IO/Str.v Csv.v Tsv.v Vw.v Namespace.v Accept.v)
   are transcriptions of outrank/core_utils.py (parse_ob_line, parse_ob_csv_line = csv.reader default
   dialect, parse_ob_line_vw, generic_line_parser, parse_namespace) and of the validity test in
   estimate_importances_minibatches; the harness holds them to the code on every run.
   Predicates:  none p s  = no character of s satisfies p;   all p s = every character does;
   edge_clean s = s neither starts nor ends with a white-space character (s.strip() == s). *)
From Coq Require Import List NArith Bool.
From Outrank Require Import IO.Str IO.StrProofs IO.Csv IO.CsvProofs IO.Tsv IO.TsvProofs
  IO.Namespace IO.NamespaceProofs IO.Vw IO.VwProofs IO.Accept IO.AcceptProofs.
Import ListNotations.
Open Scope N_scope.

(* NB: this one is model = model (it unfolds the model's dispatch; proof by computation).  It only documents
   which parser the MODEL uses per source; that the CODE dispatches the same way is established by the
   correspondence run (generic_line_parser vs the specific parse function on every generated line). *)

Theorem C16_generic_dispatch : forall delim fw header line,
  generic_line_parser ObRawDump delim fw header line = Row (map Some (parse_tsv delim line)) /\
  generic_line_parser ObVw delim fw header line = Row (parse_vw fw header line) /\
  generic_line_parser CsvRaw delim fw header line = generic_line_parser ObCsv delim fw header line /\
  generic_line_parser CsvRaw delim fw header line =
    match Csv.parse line with Some fs => Row (map Some fs) | None => ParseError end.
Proof. intros. repeat split. Qed.

(* cells are arbitrary strings without tab / CR / LF; empty cells anywhere, first and last included *)
Theorem C16_tsv : forall cells : list (list N),
  cells <> [] ->
  Forall (none (fun x => (x =? TAB) || is_nl x)) cells ->
  parse_tsv TAB (join_with [TAB] cells ++ [LF]) = cells.
Proof. exact tsv_roundtrip. Qed.

(* any one-character delimiter, any terminator made of CR / LF (LF, CR LF, none at end of file) *)
Theorem C16_tsv_any_terminator : forall delim (cells : list (list N)) term,
  is_nl delim = false -> all is_nl term -> cells <> [] ->
  Forall (none (fun x => (x =? delim) || is_nl x)) cells ->
  parse_tsv delim (join_with [delim] cells ++ term) = cells.
Proof. exact tsv_roundtrip_term. Qed.

(* such rows are exactly the physical lines the text-mode file iterator yields *)
Theorem C16_tsv_physical_lines : forall delim (rows : list (list (list N))),
  is_nl delim = false -> Forall (Forall (none (fun x => (x =? delim) || is_nl x))) rows ->
  phys_lines (concat (map (render_tsv delim) rows)) = map (render_tsv delim) rows.
Proof. exact tsv_one_physical_line. Qed.

(* the behaviour before fix f0c9429 (line.strip()): the witness TAB b TAB c LF loses its empty first field *)
Theorem C16_tsv_prefix_refuted :
  exists cells : list (list N), cells <> [] /\ Forall (none (fun x => (x =? TAB) || is_nl x)) cells /\
    parse_tsv_old TAB (render_tsv TAB cells) <> cells /\
    length (parse_tsv_old TAB (render_tsv TAB cells)) <> length cells.
Proof. exact tsv_old_refuted. Qed.

(* ... and with the count intact, edge cells lose their blanks *)
Theorem C16_tsv_prefix_refuted_blanks :
  exists cells : list (list N), Forall (none (fun x => (x =? TAB) || is_nl x)) cells /\
    length (parse_tsv_old TAB (render_tsv TAB cells)) = length cells /\
    parse_tsv_old TAB (render_tsv TAB cells) <> cells.
Proof. exact tsv_old_refuted_blanks. Qed.

(* flen_ok c : N.of_nat (length c) <= field_limit = 131072, the reader's csv.field_size_limit();
   one character more and the reader raises Error (C16_csv_limit_exceeded), which the streaming loop
   does not catch.  Within the limit the contents are arbitrary: delimiters, quotes, even line breaks
   inside (quoted) cells; no further hypothesis at the level of the line parser. *)
Theorem C16_csv : forall cells : list (list N),
  cells <> [] -> Forall flen_ok cells -> Csv.parse (Csv.render cells ++ [LF]) = Some cells.
Proof. exact roundtrip. Qed.

Theorem C16_csv_any_terminator : forall (cells : list (list N)) term,
  cells <> [] -> Forall flen_ok cells -> forallb is_nl term = true -> Csv.parse (Csv.render cells ++ term) = Some cells.
Proof. exact roundtrip_term. Qed.

(* well-formed lines are not only the image of the QUOTE_MINIMAL writer: every field may be quoted although
   it need not be (flag true), as QUOTE_ALL / QUOTE_NONNUMERIC / spreadsheet exports do; fields that must
   be quoted are quoted whatever the flag says.  render_q row = the fields rendered with those choices. *)
Theorem C16_csv_any_quoting : forall (row : list (bool * list N)) term,
  row <> [] -> Forall flen_ok (map snd row) -> forallb is_nl term = true ->
  Csv.parse (Csv.render_q row ++ term) = Some (map snd row).
Proof. exact roundtrip_q_term. Qed.

Theorem C16_csv_any_quoting_physical_lines : forall rows : list (list (bool * list N)),
  Forall (fun row => Forall (none is_nl) (map snd row)) rows ->
  phys_lines (concat (map (fun r => Csv.render_q r ++ [LF]) rows)) = map (fun r => Csv.render_q r ++ [LF]) rows.
Proof. exact csv_physical_lines_q. Qed.

(* the limit is tight *)
Theorem C16_csv_limit_exceeded : forall c term, special c = false ->
  Csv.parse (repeat c (N.to_nat field_limit + 1) ++ term) = None.
Proof. exact limit_exceeded. Qed.

(* what the real pipeline needs in addition, because it hands PHYSICAL lines to the parser: no cell
   contains CR or LF.  Then every record is one physical line. *)
Theorem C16_csv_physical_lines : forall rows : list (list (list N)),
  Forall (Forall (none is_nl)) rows ->
  phys_lines (concat (map (fun r => Csv.render r ++ [LF]) rows)) = map (fun r => Csv.render r ++ [LF]) rows.
Proof. exact csv_physical_lines. Qed.

(* the hypothesis cannot be dropped: the legal record  x,"y LF z,w"  becomes two physical lines that both
   have two fields (so both pass a two-column validity test) with wrong cells *)
Theorem C16_csv_linebreak_hypothesis_needed :
  exists row : list (list N),
    length row = 2%nat /\ Csv.parse (Csv.render row ++ [LF]) = Some row /\
    exists r1 r2, map Csv.parse (phys_lines (Csv.render row ++ [LF])) = [Some r1; Some r2] /\
                  length r1 = 2%nat /\ length r2 = 2%nat /\ r1 <> row /\ r2 <> row.
Proof. exact csv_linebreak_hypothesis_needed. Qed.

(* splitting on ',' instead of running the reader shifts columns *)
Theorem C16_csv_naive_refuted :
  exists row : list (list N), Forall (none is_nl) row /\ Csv.parse (Csv.render row ++ [LF]) = Some row /\
    parse_naive (Csv.render row ++ [LF]) <> row /\ length (parse_naive (Csv.render row ++ [LF])) <> length row.
Proof. exact csv_naive_refuted. Qed.

(* wf_vw l: label, extra tokens, namespace ids and tokens are words (non-empty, no ' ', no '|', not
   starting/ending with white space); tokens are separated by one or more spaces, parts by '|'.
   Result: the label, then for every header column the cell vw_cell = the joined tokens of the LAST
   namespace of the line whose id maps to that column, minus the first two characters; None otherwise. *)
Theorem C16_vw : forall fw header l, wf_vw l ->
  parse_vw fw header (render_vw l) = Some (vl_label l) :: map (vw_cell fw (vl_nss l)) (tl header).
Proof. exact parse_vw_spec. Qed.

Theorem C16_vw_present : forall fw nss ns el,
  In ns nss -> dict_get (ns_id ns) fw = Some el ->
  (forall ns', In ns' nss -> dict_get (ns_id ns') fw = Some el -> ns' = ns) ->
  vw_cell fw nss el = Some (skipn 2 (join_with [DASH] (map snd (ns_toks ns)))).
Proof. exact vw_cell_present. Qed.

Theorem C16_vw_absent : forall fw nss el,
  (forall ns, In ns nss -> dict_get (ns_id ns) fw <> Some el) -> vw_cell fw nss el = None.
Proof. exact vw_cell_absent. Qed.

(* INTERPRETATION of "without their two-character prefix": two characters are removed from the JOINED
   string (x[2:] after '-'.join), i.e. only the first token loses a prefix; tokens c_x c_y give x-c_y *)
Theorem C16_vw_prefix_is_of_joined_string :
  (forall (t1 : list N) ts, (2 <= length t1)%nat -> ts <> [] ->
     skipn 2 (join_with [DASH] (t1 :: ts)) = skipn 2 t1 ++ [DASH] ++ join_with [DASH] ts) /\
  (exists fw header l, wf_vw l /\
     map snd (flat_map ns_toks (vl_nss l)) = [[99; 95; 120]; [99; 95; 121]] /\
     parse_vw fw header (render_vw l) = [Some [49]; Some [120; 45; 99; 95; 121]]).
Proof. exact vw_prefix_is_of_joined_string. Qed.

(* every VW row has as many cells as the header: the field-count test can never reject an ob-vw line *)
Theorem C16_vw_never_rejected : forall fw header line,
  header <> [] -> length (parse_vw fw header line) = length header.
Proof. exact vw_row_length. Qed.

(* one step: the row is appended unmodified iff its field count equals the header's; otherwise the
   buffer (and the emitted batches) are unchanged and the invalid counter grows by one *)
Theorem C16_reject_whole : forall ncols s r,
  (length r = ncols ->
     accept_step ncols s r = mk_l (buf s ++ [r]) (emitted s) (invalid s) (crashed s)) /\
  (length r <> ncols ->
     accept_step ncols s r = mk_l (buf s) (emitted s) (invalid s + 1) (crashed s)).
Proof. exact accept_step_spec. Qed.

(* the loop: rows entering the mini-batches = the parsed rows with the header's count, in order *)
Theorem C16_accepted_rows_are_the_matching_rows : forall parser ncols bsize lines rows s,
  map parser lines = map Row rows -> crashed s = false ->
  let s' := fold_left (loop_step parser ncols bsize) lines s in
  accepted_rows s' = accepted_rows s ++ filter (accept ncols) rows /\
  invalid s' = invalid s + N.of_nat (length (rejected ncols rows)) /\
  crashed s' = false.
Proof. exact loop_rows. Qed.

(* end to end on a file: header line, then writer-style records (any quoting) whose cells have no line
   break and respect the field size limit.
   SCOPE of accepted_rows / run_loop: subsampling = 1 (every line is looked at; the subsampling stride is
   C08's), and accepted_rows = rows that passed the validity test, INCLUDING the remainder left in the buffer
   after the last line.  The code processes that remainder only when it has more than 2**10 rows (then its
   first bsize rows) and drops it otherwise: C16_processed_rows states exactly which accepted rows reach
   a processed mini-batch. *)
Theorem C16_stream_csv : forall src delim fw hdr bsize hline (rows : list (list (bool * list N))),
  src = CsvRaw \/ src = ObCsv -> none is_nl hline ->
  Forall (fun r => r <> [] /\ Forall (none is_nl) (map snd r) /\ Forall flen_ok (map snd r)) rows ->
  let text := hline ++ LF :: concat (map (fun r => Csv.render_q r ++ [LF]) rows) in
  let s := run_loop (generic_line_parser src delim fw hdr) (length hdr) bsize text in
  accepted_rows s = map (fun r => map Some (map snd r)) (filter (fun r => Nat.eqb (length r) (length hdr)) rows) /\
  invalid s = N.of_nat (length (filter (fun r => negb (Nat.eqb (length r) (length hdr))) rows)) /\
  crashed s = false.
Proof. exact stream_csv. Qed.

(* rows that actually reach compute_batch_ranking (batches_seen) = the accepted rows minus the dropped tail
   (the whole remainder when it has at most 2**10 rows, else what lies beyond its first bsize rows) *)
Theorem C16_processed_rows : forall bsize s, crashed s = false ->
  concat (batches_seen bsize s) ++
    (if 1024 <? N.of_nat (length (buf s)) then skipn bsize (buf s) else buf s) = accepted_rows s.
Proof. exact batches_seen_spec. Qed.

Theorem C16_stream_tsv : forall delim fw hdr bsize hline (rows : list (list (list N))),
  is_nl delim = false -> none is_nl hline ->
  Forall (fun r => r <> [] /\ Forall (none (fun x => (x =? delim) || is_nl x)) r) rows ->
  let text := hline ++ LF :: concat (map (render_tsv delim) rows) in
  let s := run_loop (generic_line_parser ObRawDump delim fw hdr) (length hdr) bsize text in
  accepted_rows s = map (map Some) (filter (fun r => Nat.eqb (length r) (length hdr)) rows) /\
  invalid s = N.of_nat (length (filter (fun r => negb (Nat.eqb (length r) (length hdr))) rows)) /\
  crashed s = false.
Proof. exact stream_tsv. Qed.

(* wf_decl d: fields without ',' / CR / LF, the written line neither starts nor ends with white space,
   and a declaration WITHOUT type has no '_' in its id.
   mapping = last declaration per id; keys in order of first declaration (this is the VW column order);
   float set = exactly the features some declaration gives type f32 *)
Theorem C16_namespace : forall decls : list decl, Forall wf_decl decls ->
  let r := parse_namespace (concat (map render_decl decls)) in
  (forall id, dict_get id (snd r) = assoc_last id (map (fun d => (d_id d, d_feat d)) decls)) /\
  dict_keys (snd r) = keys_first (map d_id decls) /\
  (forall f, In f (fst r) <-> exists d, In d decls /\ d_feat d = f /\ d_ty d = Some F32) /\
  NoDup (fst r).
Proof. exact parse_namespace_spec. Qed.

Theorem C16_namespace_line : forall st d, wf_decl d ->
  ns_step st (render_decl d) =
  (match d_ty d with
   | Some ty => if str_eqb ty F32 then set_add (d_feat d) (fst st) else fst st
   | None => fst st
   end, dict_set (d_id d) (d_feat d) (snd st)).
Proof. exact ns_step_render. Qed.

(* the quirk: "id,feature" with '_' in the id is skipped silently (taken as the format) *)
Theorem C16_namespace_underscore_quirk : forall st id feat,
  Forall (none (fun c => (c =? COMMA) || is_nl c)) [id; feat] -> edge_clean (join_with [COMMA] [id; feat]) ->
  mem USCORE id = true ->
  ns_step st (render_decl (id, feat, None)) = st.
Proof. exact ns_step_underscore_skipped. Qed.

(* lines with another number of fields change nothing *)
Theorem C16_namespace_other_counts : forall st line,
  length (split_on COMMA (strip_ws line)) <> 2%nat -> length (split_on COMMA (strip_ws line)) <> 3%nat ->
  ns_step st line = st.
Proof. exact ns_step_other_counts. Qed.

(* non-vacuity: concrete inputs satisfying the hypotheses (the Examples live next to the lemmas) *)
Definition C16_examples := (tsv_nonvacuous, csv_nonvacuous, csv_quoted_nonvacuous, vw_nonvacuous, namespace_nonvacuous, stream_nonvacuous).

Print Assumptions C16_generic_dispatch.
Print Assumptions C16_tsv.
Print Assumptions C16_tsv_any_terminator.
Print Assumptions C16_tsv_physical_lines.
Print Assumptions C16_tsv_prefix_refuted.
Print Assumptions C16_tsv_prefix_refuted_blanks.
Print Assumptions C16_csv.
Print Assumptions C16_csv_any_terminator.
Print Assumptions C16_csv_any_quoting.
Print Assumptions C16_csv_any_quoting_physical_lines.
Print Assumptions C16_csv_limit_exceeded.
Print Assumptions C16_vw_prefix_is_of_joined_string.
Print Assumptions C16_processed_rows.
Print Assumptions C16_csv_physical_lines.
Print Assumptions C16_csv_linebreak_hypothesis_needed.
Print Assumptions C16_csv_naive_refuted.
Print Assumptions C16_vw.
Print Assumptions C16_vw_present.
Print Assumptions C16_vw_absent.
Print Assumptions C16_vw_never_rejected.
Print Assumptions C16_reject_whole.
Print Assumptions C16_accepted_rows_are_the_matching_rows.
Print Assumptions C16_stream_csv.
Print Assumptions C16_stream_tsv.
Print Assumptions C16_namespace.
Print Assumptions C16_namespace_line.
Print Assumptions C16_namespace_underscore_quirk.
Print Assumptions C16_namespace_other_counts.
Print Assumptions C16_examples.
