(* C17 — proofs: the greedy transcription satisfies the property's clauses for every instance,
   and the boolean validator decides exactly those clauses. *)
From Coq Require Import List QArith Permutation Lia.
From Outrank Require Import Common.ListFacts Rank.QMedian Rank.QMedianProofs Rank.ThreeMR.
Import ListNotations.
Open Scope Q_scope.

Lemma argmax_in sc l : forall b, In (argmax sc b l) (b :: l).
Proof.
  induction l as [|a t IH]; intros b; cbn [argmax]; [now left|].
  destruct (Qltb (sc b) (sc a)).
  - right. apply IH.
  - destruct (IH b) as [H|H]; [now left|right; now right].
Qed.

Lemma argmax_max sc l : forall b g, In g (b :: l) -> sc g <= sc (argmax sc b l).
Proof.
  induction l as [|a t IH]; intros b g Hin; cbn [argmax].
  - destruct Hin as [<-|[]]. apply Qle_refl.
  - destruct (Qltb (sc b) (sc a)) eqn:E.
    + apply Qltb_true in E. destruct Hin as [<-|Hin].
      * eapply Qle_trans; [apply Qlt_le_weak; exact E|]. apply IH. now left.
      * apply IH. exact Hin.
    + apply Qltb_false in E. destruct Hin as [<-|[<-|Hin]].
      * apply IH. now left.
      * eapply Qle_trans; [exact E|]. apply IH. now left.
      * apply IH. now right.
Qed.

Lemma drop_in b l x : In x (drop b l) <-> In x l /\ x <> b.
Proof.
  unfold drop. rewrite filter_In. split; intros [H1 H2]; split; try assumption.
  - intros ->. rewrite N.eqb_refl in H2. discriminate.
  - apply negb_true_iff. apply N.eqb_neq. exact H2.
Qed.

Lemma drop_perm b l : NoDup l -> In b l -> Permutation l (b :: drop b l).
Proof.
  intros Hnd Hin. apply NoDup_Permutation; [exact Hnd|constructor; [rewrite drop_in; tauto|apply NoDup_filter, Hnd]|].
  intros x. cbn [In]. rewrite drop_in. destruct (N.eq_dec b x) as [<-|Hn]; [tauto|]. split; [right; split; congruence|tauto].
Qed.

(* removing the pick of one selection step leaves a shorter duplicate-free rest *)
Lemma pick_facts (sc : feat -> Q) h t : NoDup (h :: t) ->
  let b := argmax sc h t in
  Permutation (h :: t) (b :: drop b (h :: t)) /\ NoDup (drop b (h :: t)) /\ length (drop b (h :: t)) = length t.
Proof.
  intros Hnd b. pose proof (drop_perm b (h :: t) Hnd (argmax_in sc t h)) as Hp. split; [exact Hp|].
  split; [apply NoDup_filter; exact Hnd|]. apply Permutation_length in Hp. cbn [length] in Hp. lia.
Qed.

Section Greedy.
Variable sc : list feat -> feat -> Q.

(* every already ranked feature from position k0 on was best among everything ranked later or still remaining *)
Definition inv (k0 : nat) (ranked remaining : list feat) : Prop :=
  forall p f s, ranked = p ++ f :: s -> (k0 <= length p)%nat ->
  forall g, In g (s ++ remaining) -> sc p g <= sc p f.

Lemma inv_snoc k0 ranked remaining b : inv k0 ranked remaining -> In b remaining ->
  (forall g, In g remaining -> sc ranked g <= sc ranked b) -> inv k0 (ranked ++ [b]) (drop b remaining).
Proof.
  intros Hinv Hb Hmax p f s Heq Hkp g Hg. apply snoc_eq_split in Heq.
  destruct Heq as [(-> & -> & ->)|(s1 & -> & ->)].
  - (* the feature just placed *)
    cbn [app] in Hg. apply drop_in in Hg. apply Hmax, Hg.
  - (* an earlier one: b and what remains after it were remaining before *)
    apply (Hinv p f s1 eq_refl Hkp). rewrite <- app_assoc in Hg. rewrite !in_app_iff in *. cbn [In] in Hg.
    destruct Hg as [Hg|[[<-|[]]|Hg]]; [left; exact Hg|right; exact Hb|right; apply drop_in in Hg; apply Hg].
Qed.

Lemma greedy_prefix fuel : forall ranked remaining, exists tail, greedy sc fuel ranked remaining = ranked ++ tail.
Proof.
  induction fuel as [|n IH]; intros ranked remaining; cbn [greedy].
  - exists []. now rewrite app_nil_r.
  - destruct remaining as [|h t]; [exists []; now rewrite app_nil_r|].
    destruct (IH (ranked ++ [argmax (sc ranked) h t]) (drop (argmax (sc ranked) h t) (h :: t))) as [tl Htl].
    rewrite Htl, <- app_assoc. eexists. reflexivity.
Qed.

Lemma greedy_perm fuel : forall ranked remaining, (length remaining <= fuel)%nat -> NoDup remaining ->
  Permutation (greedy sc fuel ranked remaining) (ranked ++ remaining).
Proof.
  induction fuel as [|n IH]; intros ranked remaining Hlen Hnd; cbn [greedy].
  - destruct remaining; [now rewrite app_nil_r|cbn in Hlen; lia].
  - destruct remaining as [|h t]; [now rewrite app_nil_r|].
    destruct (pick_facts (sc ranked) h t Hnd) as (Hp & Hnd' & Hl). cbn [length] in Hlen.
    rewrite IH by (try exact Hnd'; lia).
    rewrite <- app_assoc. apply Permutation_app_head. cbn [app]. symmetry. exact Hp.
Qed.

Lemma greedy_inv k0 fuel : forall ranked remaining, (length remaining <= fuel)%nat -> NoDup remaining ->
  inv k0 ranked remaining -> inv k0 (greedy sc fuel ranked remaining) [].
Proof.
  induction fuel as [|n IH]; intros ranked remaining Hlen Hnd Hinv; cbn [greedy].
  - destruct remaining; [exact Hinv|cbn in Hlen; lia].
  - destruct remaining as [|h t]; [exact Hinv|].
    destruct (pick_facts (sc ranked) h t Hnd) as (_ & Hnd' & Hl). cbn [length] in Hlen.
    apply IH; [lia|exact Hnd'|]. apply inv_snoc; [exact Hinv|apply argmax_in|apply argmax_max].
Qed.
End Greedy.

(* ---------- from "every split" to "every position k" ---------- *)
Definition split_opt (sc : list feat -> feat -> Q) (k0 : nat) (fs : list feat) : Prop :=
  forall p f s, fs = p ++ f :: s -> (k0 <= length p)%nat -> forall g, In g s -> sc p g <= sc p f.

Lemma split_opt_pos sc F fs : Permutation fs F -> NoDup fs ->
  (split_opt sc 1 fs <->
   forall k f, (0 < k)%nat -> nth_error fs k = Some f ->
   forall g, In g F -> ~ In g (firstn k fs) -> sc (firstn k fs) g <= sc (firstn k fs) f).
Proof.
  intros Hp Hnd. split.
  - intros H k f Hk Hn g HgF Hnot.
    destruct (nth_error_split_firstn fs k f Hn) as [s Heq].
    assert (Hgin : In g fs) by (eapply Permutation_in; [symmetry; exact Hp|exact HgF]).
    rewrite Heq in Hgin. apply in_app_or in Hgin. destruct Hgin as [Hg|[<-|Hg]].
    + contradiction.
    + apply Qle_refl.
    + eapply H; [exact Heq| |exact Hg].
      rewrite firstn_length. apply nth_error_Some_lt in Hn. lia.
  - intros H p f s Heq Hk g Hg.
    assert (Hf : firstn (length p) fs = p).
    { rewrite Heq, firstn_app, Nat.sub_diag, firstn_all. cbn [firstn]. now rewrite app_nil_r. }
    specialize (H (length p) f). rewrite Hf in H. apply H.
    + lia.
    + rewrite Heq, nth_error_app2, Nat.sub_diag by lia. reflexivity.
    + eapply Permutation_in; [exact Hp|]. rewrite Heq. apply in_or_app. right. now right.
    + rewrite Heq in Hnd. intros Hin. apply (NoDup_app_disjoint p (f :: s) g Hnd Hin). now right.
Qed.

Lemma feats_nodup d : NoDup (feats d).
Proof. apply NoDup_nodup. Qed.

Lemma feats_keys d f : In f (feats d) <-> In f (map fst (rel d)).
Proof. apply nodup_In. Qed.

Lemma ranking_cons d h t : feats d = h :: t ->
  ranking d = greedy (score d) (length t) [argmax (relv d) h t] (drop (argmax (relv d) h t) (h :: t)).
Proof. unfold ranking. intros ->. reflexivity. Qed.

Lemma ranking_perm d : Permutation (ranking d) (feats d) /\ NoDup (ranking d).
Proof.
  assert (Hp : Permutation (ranking d) (feats d)).
  { pose proof (feats_nodup d) as Hnd. destruct (feats d) as [|h t] eqn:E; [unfold ranking; rewrite E; reflexivity|].
    rewrite (ranking_cons d h t E). destruct (pick_facts (relv d) h t Hnd) as (Hd & Hnd' & Hl).
    rewrite greedy_perm by (try exact Hnd'; lia). cbn [app]. symmetry. exact Hd. }
  split; [exact Hp|]. eapply Permutation_NoDup; [symmetry; exact Hp|apply feats_nodup].
Qed.

Lemma ranking_head d : forall f0, nth_error (ranking d) 0 = Some f0 ->
  forall g, In g (feats d) -> relv d g <= relv d f0.
Proof.
  destruct (feats d) as [|h t] eqn:E; intros f0 H0 g Hg; [destruct Hg|]. rewrite (ranking_cons d h t E) in H0.
  destruct (greedy_prefix (score d) (length t) [argmax (relv d) h t] (drop (argmax (relv d) h t) (h :: t))) as [tl Htl].
  rewrite Htl in H0. cbn in H0. injection H0 as <-. apply argmax_max. exact Hg.
Qed.

Lemma ranking_split_opt d : split_opt (score d) 1 (ranking d).
Proof.
  enough (H : inv (score d) 1 (ranking d) []) by (intros p f s Heq Hk g Hg; apply (H p f s Heq Hk); rewrite app_nil_r; exact Hg).
  pose proof (feats_nodup d) as Hnd. destruct (feats d) as [|h t] eqn:E.
  - unfold ranking. rewrite E. intros p f s Heq. destruct p; discriminate.
  - rewrite (ranking_cons d h t E). destruct (pick_facts (relv d) h t Hnd) as (_ & Hnd' & Hl).
    apply greedy_inv; [lia|exact Hnd'|].
    (* the first feature is at position 0 < 1: nothing is claimed yet *)
    intros p f s Heq Hk. destruct p as [|a p]; [cbn in Hk; lia|]. destruct p; discriminate.
Qed.

Lemma ranking_step d : forall k f, (0 < k)%nat -> nth_error (ranking d) k = Some f ->
  forall g, In g (feats d) -> ~ In g (firstn k (ranking d)) ->
  score d (firstn k (ranking d)) g <= score d (firstn k (ranking d)) f.
Proof.
  destruct (ranking_perm d) as [Hp Hnd].
  apply (split_opt_pos (score d) (feats d) (ranking d) Hp Hnd). apply ranking_split_opt.
Qed.

Lemma ranks_length n : length (ranks n) = n.
Proof. unfold ranks. now rewrite map_length, seq_length. Qed.

Lemma ranking_df_fst d : map fst (ranking_df d) = ranking d.
Proof. apply map_fst_combine. symmetry. apply ranks_length. Qed.

Lemma ranking_df_snd d : map snd (ranking_df d) = ranks (length (ranking_df d)).
Proof.
  unfold ranking_df. rewrite combine_length, ranks_length, Nat.min_id.
  apply map_snd_combine. symmetry. apply ranks_length.
Qed.

Theorem model_spec d : spec_3mr d (ranking_df d).
Proof.
  constructor; rewrite ?ranking_df_fst.
  - apply ranking_perm.
  - apply ranking_head.
  - apply ranking_step.
  - apply ranking_df_snd.
Qed.

(* ranks are 1..n in list order, position by position *)
Lemma ranks_nth n k : (k < n)%nat -> nth_error (ranks n) k = Some (Z.of_nat (S k)).
Proof.
  intros H. unfold ranks. rewrite nth_error_map, nth_error_nth' with (d := O) by (now rewrite seq_length).
  rewrite seq_nth by exact H. reflexivity.
Qed.

Theorem model_ranks d : forall k f z, nth_error (ranking_df d) k = Some (f, z) -> z = Z.of_nat (S k).
Proof.
  intros k f z H.
  assert (Hs : nth_error (map snd (ranking_df d)) k = Some z) by (rewrite nth_error_map, H; reflexivity).
  rewrite ranking_df_snd, ranks_nth in Hs; [congruence|].
  apply nth_error_Some_lt in H. exact H.
Qed.

Lemma memb_in k l : memb k l = true <-> In k l.
Proof. exact (existsb_eqb_In N.eqb N.eqb_eq k l). Qed.

Lemma nodupb_iff l : nodupb l = true <-> NoDup l.
Proof. exact (nodupb_iff_of memb nodupb memb_in eq_refl (fun _ _ => eq_refl) l). Qed.

Lemma zlist_eqb_iff a b : zlist_eqb a b = true <-> a = b.
Proof. exact (eqb_list_eq Z.eqb Z.eqb_eq a b). Qed.

Lemma permb_iff d fs : permb d fs = true <-> Permutation fs (feats d) /\ NoDup fs.
Proof.
  unfold permb. rewrite !andb_true_iff, nodupb_iff, Nat.eqb_eq, forallb_forall. split.
  - intros [[Hnd Hlen] Hall]. split; [|exact Hnd].
    apply NoDup_Permutation_bis; [exact Hnd|lia|].
    intros g Hg. apply memb_in. apply Hall. exact Hg.
  - intros [Hp Hnd]. repeat split; [exact Hnd|apply Permutation_length; exact Hp|].
    intros g Hg. apply memb_in. eapply Permutation_in; eassumption.
Qed.

Lemma firstb_iff d fs : firstb d fs = true <->
  (forall f0, nth_error fs 0 = Some f0 -> forall g, In g (feats d) -> relv d g <= relv d f0).
Proof.
  destruct fs as [|f0 t]; cbn [firstb nth_error].
  - split; [discriminate|reflexivity].
  - rewrite forallb_forall. split.
    + intros H f Hf g Hg. injection Hf as <-. apply Qle_bool_iff. apply H. exact Hg.
    + intros H g Hg. apply Qle_bool_iff. apply (H f0 eq_refl). exact Hg.
Qed.

Lemma steps_okb_iff d rest : forall prefix, steps_okb d prefix rest = true <->
  (forall p f s, rest = p ++ f :: s -> forall g, In g s -> score d (prefix ++ p) g <= score d (prefix ++ p) f).
Proof.
  induction rest as [|f0 s0 IH]; intros prefix; cbn [steps_okb].
  - split; [|reflexivity]. intros _ p f s Heq. destruct p; discriminate.
  - rewrite andb_true_iff, forallb_forall, IH. split.
    + intros [Hhd Htl] p f s Heq g Hg. destruct p as [|a p].
      * cbn [app] in Heq. injection Heq as <- <-. rewrite app_nil_r. apply Qle_bool_iff. apply Hhd. exact Hg.
      * cbn [app] in Heq. injection Heq as <- ->.
        specialize (Htl p f s eq_refl g Hg). rewrite <- app_assoc in Htl. exact Htl.
    + intros H. split.
      * intros g Hg. apply Qle_bool_iff. specialize (H [] f0 s0 eq_refl g Hg). rewrite app_nil_r in H. exact H.
      * intros p f s Heq g Hg. specialize (H (f0 :: p) f s). rewrite <- app_assoc. apply H; [now rewrite Heq|exact Hg].
Qed.

Lemma stepsb_iff d fs : stepsb d fs = true <-> split_opt (score d) 1 fs.
Proof.
  unfold stepsb, split_opt. destruct fs as [|f0 rest].
  - split; [|reflexivity]. intros _ p f s Heq. destruct p; discriminate.
  - rewrite steps_okb_iff. split.
    + intros H p f s Heq Hk g Hg. destruct p as [|a p]; [cbn in Hk; lia|].
      cbn [app] in Heq. injection Heq as <- ->. apply (H p f s eq_refl g Hg).
    + intros H p f s Heq g Hg. apply (H (f0 :: p) f s); [now rewrite Heq|cbn; lia|exact Hg].
Qed.

Theorem valid_3mr_iff d r : valid_3mr d r = true <-> spec_3mr d r.
Proof.
  unfold valid_3mr, ranksb. rewrite !andb_true_iff, permb_iff, firstb_iff, stepsb_iff, zlist_eqb_iff. split.
  - intros [[[[Hp Hnd] Hf] Hs] Hr]. constructor; try assumption; [split; assumption|].
    apply (split_opt_pos (score d) (feats d) (map fst r) Hp Hnd). exact Hs.
  - intros [[Hp Hnd] Hf Hs Hr]. repeat split; try assumption.
    apply (split_opt_pos (score d) (feats d) (map fst r) Hp Hnd). exact Hs.
Qed.

Theorem model_valid d : valid_3mr d (ranking_df d) = true.
Proof. apply valid_3mr_iff. apply model_spec. Qed.

(* missing pairs count as 0; a present pair gives its value; direction matters *)
Lemma get2_missing t a b : (forall a' b' v, In (a', b', v) t -> a' <> a \/ b' <> b) -> get2 t a b = 0.
Proof.
  induction t as [|[[a' b'] v] r IH]; intros H; [reflexivity|]. cbn [get2].
  assert (Hr : get2 r a b = 0) by (apply IH; intros; eapply H; right; eassumption).
  destruct (N.eqb_spec a a') as [->|Ha]; destruct (N.eqb_spec b b') as [->|Hb]; cbn [andb]; try exact Hr.
  destruct (H a' b' v (or_introl eq_refl)); congruence.
Qed.

Lemma get2_present t a b v : NoDup (map fst t) -> In (a, b, v) t -> get2 t a b = v.
Proof.
  induction t as [|[[a' b'] v'] r IH]; intros Hnd Hin; [destruct Hin|]. cbn [get2].
  inversion Hnd as [|? ? Hnot Hnd']; subst.
  destruct Hin as [Heq|Hin].
  - injection Heq as -> -> ->. rewrite !N.eqb_refl. reflexivity.
  - destruct (N.eqb_spec a a') as [->|Ha]; destruct (N.eqb_spec b b') as [->|Hb]; cbn [andb];
      try (apply IH; assumption).
    exfalso. apply Hnot. change (a', b') with (fst (a', b', v)). apply in_map. exact Hin.
Qed.

Lemma set1_keys d k v x : In x (map fst (set1 d k v)) <-> x = k \/ In x (map fst d).
Proof.
  induction d as [|[k' v'] r IH]; cbn [set1 map fst In].
  - split; [intros [H|[]]; left; congruence|intros [H|[]]; left; congruence].
  - destruct (N.eqb_spec k k') as [->|Hn]; cbn [map fst In].
    + split; [intros [H|H]; [right; left; exact H|right; right; exact H]|intros [H|[H|H]]; [left; congruence|left; exact H|right; exact H]].
    + rewrite IH. split; [intros [H|[H|H]]; auto|intros [H|[H|H]]; auto].
Qed.

Lemma fold_set1_keys rows : forall acc x,
  In x (map fst (fold_left (fun d '(k, s) => set1 d k s) rows acc)) <-> In x (map fst rows) \/ In x (map fst acc).
Proof.
  induction rows as [|[k s] rows IH]; intros acc x; cbn [fold_left map fst In]; [tauto|].
  rewrite IH, set1_keys. split; [intros [H|[H|H]]; auto|intros [[H|H]|H]; auto].
Qed.

Lemma norm1_keys rows : map fst (norm1 rows) = map fst rows.
Proof. unfold norm1. rewrite map_map. apply map_ext. intros [k s]. reflexivity. Qed.

Lemma relevance_rows_keys lbl T f :
  In f (map fst (relevance_rows lbl T)) <-> f <> lbl /\ exists s, In (Plain f, Plain lbl, s) T.
Proof.
  unfold relevance_rows. rewrite in_map_iff. split.
  - intros [[k s] [Hk Hin]]. cbn in Hk. subst k. apply in_flat_map in Hin. destruct Hin as [[[a b] s'] [HT Hin]].
    destruct a as [a|]; [|destruct Hin]. destruct b as [b|]; [|destruct Hin].
    destruct (N.eqb_spec b lbl) as [->|]; [|destruct Hin]. destruct (N.eqb_spec a lbl) as [->|Hn]; cbn in Hin; [destruct Hin|].
    destruct Hin as [Heq|[]]. injection Heq as -> ->. split; [exact Hn|]. exists s. exact HT.
  - intros [Hn [s HT]]. exists (f, s). split; [reflexivity|]. apply in_flat_map. exists (Plain f, Plain lbl, s).
    split; [exact HT|]. rewrite N.eqb_refl. destruct (N.eqb_spec f lbl); [contradiction|]. now left.
Qed.

Theorem caller_feats lbl T d f : build_inst lbl T = Some d ->
  (In f (feats d) <-> f <> lbl /\ exists s, In (Plain f, Plain lbl, s) T).
Proof.
  unfold build_inst. destruct (caller_degenerate lbl T); [discriminate|]. intros H. injection H as <-.
  rewrite feats_keys. unfold build_inst_total. cbn [rel].
  rewrite fold_set1_keys, norm1_keys, relevance_rows_keys. cbn [map In]. tauto.
Qed.

(* exactly when a non-empty table has min == max there is no instance (degenerate_iff, QMedianProofs) *)
Theorem caller_none lbl T : build_inst lbl T = None <->
  degenerate (map snd (relevance_rows lbl T)) = true \/ degenerate (map snd (relation_rows lbl T)) = true
  \/ degenerate (map snd (redundancy_rows lbl T)) = true.
Proof.
  unfold build_inst, caller_degenerate.
  destruct (degenerate (map snd (relevance_rows lbl T))); destruct (degenerate (map snd (relation_rows lbl T)));
    destruct (degenerate (map snd (redundancy_rows lbl T))); cbn; intuition discriminate.
Qed.

(* two features with the same relevance: the code's 0/0; no instance *)
Example caller_degenerate_example :
  build_inst 9%N [(Plain 1%N, Plain 9%N, 1 # 2); (Plain 2%N, Plain 9%N, 1 # 2); (Plain 1%N, Plain 2%N, 1 # 4); (Plain 2%N, Plain 2%N, 3 # 4)] = None.
Proof. vm_compute. reflexivity. Qed.
(* the later row of a repeated key wins, the first insertion position is kept *)
Example caller_last_row_wins :
  option_map (fun d => (map fst (rel d), Qred (relv d 1%N), Qred (relv d 2%N)))
    (build_inst 9%N [(Plain 1%N, Plain 9%N, 0); (Plain 2%N, Plain 9%N, 1); (Plain 1%N, Plain 9%N, 1 # 2)])
  = Some ([1%N; 2%N], 1 # 2, 1).
Proof. vm_compute. reflexivity. Qed.

Example ex_inst : inst :=
  {| rel := [(0%N, 3 # 4); (1%N, 3 # 4); (2%N, 1 # 4); (3%N, -(1 # 2))];
     red := [((0%N, 1%N), 1 # 2); ((1%N, 0%N), 1 # 8); ((0%N, 2%N), 1 # 4); ((1%N, 2%N), 3 # 4)];
     rln := [((0%N, 3%N), 2 # 1); ((1%N, 3%N), 1 # 1)];
     strat := Median; alpha := 1; beta := 1 # 2 |}.
Example ex_ranking : ranking_df ex_inst = [(0%N, 1%Z); (3%N, 2%Z); (1%N, 3%Z); (2%N, 4%Z)].
Proof. vm_compute. reflexivity. Qed.
(* a different tie-breaking (feature 1 first) is valid as well; starting with feature 2 is not *)
Example ex_other_valid : valid_3mr ex_inst [(1%N, 1%Z); (0%N, 2%Z); (3%N, 3%Z); (2%N, 4%Z)] = true.
Proof. vm_compute. reflexivity. Qed.
Example ex_invalid : valid_3mr ex_inst [(2%N, 1%Z); (0%N, 2%Z); (3%N, 3%Z); (1%N, 4%Z)] = false.
Proof. vm_compute. reflexivity. Qed.
