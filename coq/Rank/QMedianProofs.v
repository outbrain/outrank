(* Lemmas about the rational sort / median / extremes shared by C17 and C18. *)
From Coq Require Import List QArith Permutation Sorting.Sorted Lia.
From Outrank Require Import Common.ListFacts Common.Sort Rank.QMedian.
Import ListNotations.
Open Scope Q_scope.

(* The element a left-to-right scan keeps when it replaces its candidate by every element that is [leb] it:
   [qmin] and [qmax] are this scan for Qle_bool and for its converse. *)
Section Best.
  Context {A : Type} (leb : A -> A -> bool).
  Hypothesis total : forall x y, leb x y = true \/ leb y x = true.
  Hypothesis trans : forall x y z, leb x y = true -> leb y z = true -> leb x z = true.

  Definition best (seed : A) (l : list A) : A := fold_right (fun x m => if leb x m then x else m) seed l.

  Lemma best_spec l seed :
    In (best seed l) (seed :: l) /\ leb (best seed l) seed = true /\ forall x, In x l -> leb (best seed l) x = true.
  Proof.
    assert (refl : forall x, leb x x = true) by (intros x; destruct (total x x); assumption).
    induction l as [|a t IH]; cbn [best fold_right].
    - split; [now left|]. split; [apply refl|intros x []].
    - fold (best seed t). destruct IH as [Hin [Hs Hall]]. destruct (leb a (best seed t)) eqn:E.
      + split; [right; now left|]. split; [eapply trans; eassumption|].
        intros x [<-|Hx]; [apply refl|]. eapply trans; [exact E|apply Hall; exact Hx].
      + split; [destruct Hin as [H|H]; [now left|right; now right]|]. split; [exact Hs|].
        intros x [<-|Hx]; [|apply Hall; exact Hx]. destruct (total a (best seed t)); [congruence|assumption].
  Qed.

  Lemma best_hd_in a t : In (best a (a :: t)) (a :: t).
  Proof. destruct (best_spec (a :: t) a) as [[H|H] _]; [rewrite <- H; now left|exact H]. Qed.
End Best.

Lemma Qltb_true a b : Qltb a b = true -> a < b.
Proof.
  unfold Qltb. intros H. apply Bool.negb_true_iff in H.
  apply Qnot_le_lt. intros Hle. apply Qle_bool_iff in Hle. congruence.
Qed.

Lemma Qltb_false a b : Qltb a b = false -> b <= a.
Proof. unfold Qltb. intros H. apply Bool.negb_false_iff in H. apply Qle_bool_iff. exact H. Qed.

Lemma Qle_bool_total x y : Qle_bool x y = true \/ Qle_bool y x = true.
Proof. rewrite !Qle_bool_iff. destruct (Qlt_le_dec x y) as [H|H]; [left; apply Qlt_le_weak; exact H|right; exact H]. Qed.

Lemma Qle_bool_trans x y z : Qle_bool x y = true -> Qle_bool y z = true -> Qle_bool x z = true.
Proof. rewrite !Qle_bool_iff. apply Qle_trans. Qed.

(* ---------- qsort = isort Qle_bool ---------- *)
Lemma qsort_perm l : Permutation (qsort l) l.
Proof. exact (isort_perm Qle_bool l). Qed.

Lemma qsort_length l : length (qsort l) = length l.
Proof. apply Permutation_length, qsort_perm. Qed.

Lemma qsort_sorted l : StronglySorted Qle (qsort l).
Proof.
  apply (StronglySorted_weaken (fun x y => Qle_bool x y = true)); [intros x y; apply Qle_bool_iff|].
  exact (isort_sorted Qle_bool Qle_bool_total Qle_bool_trans l).
Qed.

(* on rationals in lowest terms Qeq is Leibniz equality, so sorting forgets the input order *)
Lemma reduced_eq x y : reduced x -> reduced y -> x == y -> x = y.
Proof. unfold reduced. intros Hx Hy H. rewrite <- Hx, <- Hy. apply Qred_complete. exact H. Qed.

Theorem qsort_perm_invariant l l' : Forall reduced l -> Permutation l l' -> qsort l = qsort l'.
Proof.
  intros Hred Hp. apply (isort_perm_invariant Qle_bool Qle_bool_total Qle_bool_trans); [|exact Hp].
  rewrite Forall_forall in Hred. intros x y Hx Hy Hxy Hyx.
  apply reduced_eq; [apply Hred; exact Hx|apply Hred; exact Hy|].
  apply Qle_antisym; apply Qle_bool_iff; assumption.
Qed.

Theorem qmedian_perm l l' : Forall reduced l -> Permutation l l' -> qmedian l = qmedian l'.
Proof. intros Hred Hp. unfold qmedian. rewrite (qsort_perm_invariant l l' Hred Hp). reflexivity. Qed.

(* what the median is, in terms of the sorted values *)
Theorem qmedian_spec l : exists s, Permutation s l /\ StronglySorted Qle s /\
  qmedian l = if Nat.even (length l) then (nth (length l / 2 - 1) s 0 + nth (length l / 2) s 0) / 2
              else nth (length l / 2) s 0.
Proof.
  exists (qsort l). split; [apply qsort_perm|]. split; [apply qsort_sorted|].
  unfold qmedian. rewrite qsort_length. reflexivity.
Qed.

Lemma qmedian_single x : qmedian [x] = x.
Proof. reflexivity. Qed.

(* the median lies between the extremes of the list *)
Lemma sorted_nth_le s : StronglySorted Qle s -> forall i j, (i <= j < length s)%nat -> nth i s 0 <= nth j s 0.
Proof.
  induction 1 as [|h t Hs IH Hall]; intros i j Hij; [cbn in Hij; lia|].
  destruct j as [|j]; destruct i as [|i]; cbn [nth]; try lia.
  - apply Qle_refl.
  - rewrite Forall_forall in Hall. apply Hall. apply nth_In. cbn in Hij. lia.
  - apply IH. cbn in Hij. lia.
Qed.

Lemma qmedian_bounds l lo hi : l <> [] -> Forall (fun x => lo <= x /\ x <= hi) l -> lo <= qmedian l /\ qmedian l <= hi.
Proof.
  intros Hne Hall.
  assert (Hs : Forall (fun x => lo <= x /\ x <= hi) (qsort l))
    by (eapply Permutation_Forall; [symmetry; apply qsort_perm|exact Hall]).
  assert (Hlen : (0 < length (qsort l))%nat) by (rewrite qsort_length; destruct l; [congruence|cbn; lia]).
  unfold qmedian. set (s := qsort l) in *. set (n := length s) in *.
  rewrite Forall_forall in Hs.
  assert (Hn2 : (n / 2 < n)%nat) by (apply Nat.div_lt; lia).
  destruct (Nat.even n) eqn:E.
  - assert (Hn1 : (n / 2 - 1 < n)%nat) by lia.
    destruct (Hs (nth (n / 2 - 1) s 0)) as [A1 A2]; [apply nth_In; exact Hn1|].
    destruct (Hs (nth (n / 2) s 0)) as [B1 B2]; [apply nth_In; exact Hn2|].
    set (a := nth (n / 2 - 1) s 0) in *. set (b := nth (n / 2) s 0) in *.
    split.
    + apply Qle_shift_div_l; [reflexivity|]. setoid_replace (lo * 2) with (lo + lo) by ring.
      apply Qplus_le_compat; assumption.
    + apply Qle_shift_div_r; [reflexivity|]. setoid_replace (hi * 2) with (hi + hi) by ring.
      apply Qplus_le_compat; assumption.
  - apply Hs. apply nth_In. exact Hn2.
Qed.

(* ---------- Series.min() / Series.max(): [qmin l] is [best Qle_bool (hd 0 l) l], [qmax l] is [best Qge_bool (hd 0 l) l], by conversion ---------- *)
Definition Qge_bool (x y : Q) : bool := Qle_bool y x.

Lemma Qge_bool_total x y : Qge_bool x y = true \/ Qge_bool y x = true.
Proof. destruct (Qle_bool_total x y); [right|left]; assumption. Qed.

Lemma Qge_bool_trans x y z : Qge_bool x y = true -> Qge_bool y z = true -> Qge_bool x z = true.
Proof. unfold Qge_bool. intros H1 H2. exact (Qle_bool_trans z y x H2 H1). Qed.

Lemma qmin_in l : l <> [] -> In (qmin l) l.
Proof. destruct l as [|a t]; [congruence|]. intros _. exact (best_hd_in Qle_bool Qle_bool_total Qle_bool_trans a t). Qed.
Lemma qmax_in l : l <> [] -> In (qmax l) l.
Proof. destruct l as [|a t]; [congruence|]. intros _. exact (best_hd_in Qge_bool Qge_bool_total Qge_bool_trans a t). Qed.

Lemma qmin_le l x : In x l -> qmin l <= x.
Proof. intros H. apply Qle_bool_iff. apply (best_spec Qle_bool Qle_bool_total Qle_bool_trans l (hd 0 l)). exact H. Qed.
Lemma qmax_ge l x : In x l -> x <= qmax l.
Proof. intros H. apply Qle_bool_iff. apply (best_spec Qge_bool Qge_bool_total Qge_bool_trans l (hd 0 l)). exact H. Qed.

Lemma qmin_le_qmax l : l <> [] -> qmin l <= qmax l.
Proof. intros H. apply qmax_ge. apply qmin_in. exact H. Qed.

(* the extremes are determined, up to ==, by being attained bounds *)
Lemma qmin_unique l v : In v l -> (forall x, In x l -> v <= x) -> v == qmin l.
Proof.
  intros Hv Hlow. assert (Hne : l <> []) by (intros ->; destruct Hv).
  apply Qle_antisym; [apply Hlow, qmin_in, Hne|apply qmin_le, Hv].
Qed.
Lemma qmax_unique l v : In v l -> (forall x, In x l -> x <= v) -> v == qmax l.
Proof.
  intros Hv Hup. assert (Hne : l <> []) by (intros ->; destruct Hv).
  apply Qle_antisym; [apply qmax_ge, Hv|apply Hup, qmax_in, Hne].
Qed.

Lemma qmin_perm l l' : Permutation l l' -> qmin l == qmin l'.
Proof.
  intros Hp. destruct l as [|a t]; [apply Permutation_nil in Hp; subst; reflexivity|].
  apply qmin_unique.
  - eapply Permutation_in; [exact Hp|apply qmin_in; discriminate].
  - intros x Hx. apply qmin_le. eapply Permutation_in; [symmetry; exact Hp|exact Hx].
Qed.
Lemma qmax_perm l l' : Permutation l l' -> qmax l == qmax l'.
Proof.
  intros Hp. destruct l as [|a t]; [apply Permutation_nil in Hp; subst; reflexivity|].
  apply qmax_unique.
  - eapply Permutation_in; [exact Hp|apply qmax_in; discriminate].
  - intros x Hx. apply qmax_ge. eapply Permutation_in; [symmetry; exact Hp|exact Hx].
Qed.

(* two different values are enough for min < max: the min-max normalisation then divides by a positive number *)
Lemma qmin_lt_qmax l v w : In v l -> In w l -> ~ v == w -> qmin l < qmax l.
Proof.
  intros Hv Hw Hvw. destruct (Qlt_le_dec (qmin l) (qmax l)) as [H|H]; [exact H|]. exfalso. apply Hvw.
  pose proof (qmin_le _ _ Hv). pose proof (qmax_ge _ _ Hv). pose proof (qmin_le _ _ Hw). pose proof (qmax_ge _ _ Hw).
  apply Qle_antisym; eapply Qle_trans; try eassumption; eapply Qle_trans; eassumption.
Qed.

Lemma degenerate_iff l : degenerate l = true <-> l <> [] /\ qmin l == qmax l.
Proof.
  unfold degenerate. destruct l as [|a t].
  - split; [discriminate|intros [H _]; congruence].
  - rewrite Qeq_bool_iff. split; [intros H; split; [discriminate|exact H]|intros [_ H]; exact H].
Qed.

Lemma degenerate_false_lt l : l <> [] -> degenerate l = false -> qmin l < qmax l.
Proof.
  intros Hne Hd. destruct (Qlt_le_dec (qmin l) (qmax l)) as [H|H]; [exact H|]. exfalso.
  assert (Ht : degenerate l = true); [|congruence].
  apply degenerate_iff. split; [exact Hne|]. apply Qle_antisym; [apply qmin_le_qmax; exact Hne|exact H].
Qed.

Lemma degenerate_all_min l x : degenerate l = true -> In x l -> x == qmin l.
Proof.
  intros Hd Hx. apply degenerate_iff in Hd. destruct Hd as [_ He].
  apply Qle_antisym; [rewrite He; apply qmax_ge; exact Hx|apply qmin_le; exact Hx].
Qed.
