(* C18.  The tables of Summary/Summary.v read clause by clause: keys (group_median_*, medians_keys), order (sort_desc as an instance
   of the generic sort), values (pre_in, normalise_in), names written by the ranking task (tail_ok: what may follow a constituent;
   witnesses for what the hypotheses exclude).  Then the executable checkers, each sound for those clauses and accepting the
   model's own table, over rational tables and over cell tables (NaN table: degenerate); worked examples of [summary] at the end. *)
From Coq Require Import List Qabs Permutation Sorting.Sorted Lia.
From Outrank Require Import Common.ListFacts Common.Sort Rank.QMedian Rank.QMedianProofs Summary.Summary.
Import ListNotations.
Open Scope Q_scope.

(* a table whose value column is rewritten entry by entry *)
Lemma in_map_value {A B C} (g : B -> C) (l : list (A * B)) k c :
  In (k, c) (map (fun r => (fst r, g (snd r))) l) <-> exists v, In (k, v) l /\ c = g v.
Proof.
  rewrite in_map_iff. split.
  - intros [[k' v] [Heq Hin]]. cbn in Heq. injection Heq as <- <-. exists v. auto.
  - intros [v [Hin ->]]. exists (k, v). auto.
Qed.

Lemma name_eqb_eq a : forall b, name_eqb a b = true <-> a = b.
Proof. exact (eqb_list_eq N.eqb N.eqb_eq a). Qed.

Lemma name_eqb_refl a : name_eqb a a = true.
Proof. apply name_eqb_eq. reflexivity. Qed.

Lemma memn_in x l : memn x l = true <-> In x l.
Proof. exact (existsb_eqb_In name_eqb name_eqb_eq x l). Qed.

Lemma dedup_spec l : forall seen,
  NoDup (dedup seen l) /\ forall x, In x (dedup seen l) <-> In x l /\ ~ In x seen.
Proof.
  induction l as [|h t IH]; intros seen; cbn [dedup].
  - split; [constructor|]. intros x. cbn. tauto.
  - destruct (memn h seen) eqn:E.
    + apply memn_in in E. destruct (IH seen) as [Hnd Hin]. split; [exact Hnd|].
      intros x. rewrite Hin. cbn [In]. split; [tauto|]. intros [[<-|H] Hn]; [contradiction|tauto].
    + assert (Hh : ~ In h seen) by (intros H; apply memn_in in H; congruence).
      destruct (IH (h :: seen)) as [Hnd Hin]. split.
      * constructor; [|exact Hnd]. rewrite Hin. cbn [In]. tauto.
      * intros x. cbn [In]. rewrite Hin. cbn [In].
        destruct (list_eq_dec N.eq_dec h x) as [<-|Hn]; tauto.
Qed.

Lemma dedup_NoDup l : NoDup (dedup [] l).
Proof. apply dedup_spec. Qed.

Lemma dedup_in l x : In x (dedup [] l) <-> In x l.
Proof. destruct (dedup_spec l []) as [_ H]. rewrite H. cbn. tauto. Qed.

Lemma group_median_fst rows : map fst (group_median rows) = dedup [] (map fst rows).
Proof. unfold group_median. rewrite map_map. cbn [fst]. apply map_id. Qed.

Lemma group_median_nodup rows : NoDup (map fst (group_median rows)).
Proof. rewrite group_median_fst. apply dedup_NoDup. Qed.

Lemma group_median_keys rows f : In f (map fst (group_median rows)) <-> exists s, In (f, s) rows.
Proof.
  rewrite group_median_fst, dedup_in, in_map_iff. split.
  - intros [[g s] [Hg Hin]]. cbn in Hg. subst g. exists s. exact Hin.
  - intros [s Hin]. exists (f, s). split; [reflexivity|exact Hin].
Qed.

Lemma group_median_in rows f v : In (f, v) (group_median rows) -> v = qmedian (scores_of f rows).
Proof.
  unfold group_median. rewrite in_map_iff. intros [g [Heq _]]. injection Heq as -> ->. reflexivity.
Qed.

Lemma in_scores_of f rows s : In s (scores_of f rows) <-> In (f, s) rows.
Proof.
  unfold scores_of. rewrite in_map_iff. split.
  - intros [[g s'] [Hs Hin]]. cbn in Hs. subst s'. apply filter_In in Hin. destruct Hin as [Hin He].
    cbn in He. apply name_eqb_eq in He. now subst.
  - intros H. exists (f, s). split; [reflexivity|]. apply filter_In. split; [exact H|]. cbn. apply name_eqb_refl.
Qed.

Lemma scores_of_cons f g w m : scores_of f ((g, w) :: m) = if name_eqb f g then w :: scores_of f m else scores_of f m.
Proof. unfold scores_of. cbn [filter fst]. destruct (name_eqb f g); reflexivity. Qed.

Lemma scores_of_notin f m : ~ In f (map fst m) -> scores_of f m = [].
Proof.
  induction m as [|[g w] m IH]; intros Hn; [reflexivity|]. rewrite scores_of_cons.
  destruct (name_eqb f g) eqn:E.
  - apply name_eqb_eq in E. subst g. exfalso. apply Hn. now left.
  - apply IH. intros H. apply Hn. now right.
Qed.

Lemma scores_of_unique m f v : NoDup (map fst m) -> In (f, v) m -> scores_of f m = [v].
Proof.
  induction m as [|[g w] m IH]; intros Hnd Hin; [destruct Hin|].
  cbn [map fst] in Hnd. inversion Hnd as [|? ? Hnot Hnd']; subst. rewrite scores_of_cons.
  destruct Hin as [Heq|Hin].
  - injection Heq as -> ->. rewrite name_eqb_refl, (scores_of_notin f m Hnot). reflexivity.
  - destruct (name_eqb f g) eqn:E; [|apply IH; assumption].
    apply name_eqb_eq in E. subst g. exfalso. apply Hnot. exact (in_map fst m (f, v) Hin).
Qed.

Lemma final_ranking_in lbl T f s :
  In (f, s) (final_ranking lbl T) <-> exists t, In t T /\ label_partner lbl t = Some (f, s).
Proof.
  unfold final_ranking. rewrite in_flat_map. split.
  - intros [t [Ht Hin]]. exists t. split; [exact Ht|]. destruct (label_partner lbl t) as [x|]; [|destruct Hin].
    destruct Hin as [->|[]]. reflexivity.
  - intros [t [Ht Hp]]. exists t. split; [exact Ht|]. rewrite Hp. now left.
Qed.

Lemma label_partner_spec lbl a b s f v : label_partner lbl (a, b, s) = Some (f, v) <->
  v = s /\ ((is_label lbl a = true /\ f = b) \/ (is_label lbl a = false /\ is_label lbl b = true /\ f = a)).
Proof.
  unfold label_partner. destruct (is_label lbl a); [|destruct (is_label lbl b)]; split.
  - intros H. injection H as <- <-. auto.
  - intros [-> [[_ ->]|[H _]]]; [reflexivity|discriminate].
  - intros H. injection H as <- <-. auto.
  - intros [-> [[H _]|[_ [_ ->]]]]; [discriminate|reflexivity].
  - discriminate.
  - intros [_ [[H _]|[_ [H _]]]]; discriminate.
Qed.

Lemma medians_keys lbl T f : In f (map fst (medians lbl T)) <-> exists t s, In t T /\ label_partner lbl t = Some (f, s).
Proof.
  unfold medians. rewrite group_median_keys. split.
  - intros [s Hin]. apply final_ranking_in in Hin. destruct Hin as [t Ht]. exists t, s. exact Ht.
  - intros [t [s Ht]]. exists s. apply final_ranking_in. exists t. exact Ht.
Qed.

(* sort_desc is isort over the converse order on the scores *)
Definition ge_snd (a b : name * Q) : Prop := snd b <= snd a.
Definition ge_sndb (a b : name * Q) : bool := Qge_bool (snd a) (snd b).

Lemma sort_desc_perm l : Permutation (sort_desc l) l.
Proof. exact (isort_perm ge_sndb l). Qed.

Lemma sort_desc_sorted l : StronglySorted ge_snd (sort_desc l).
Proof.
  apply (StronglySorted_weaken (fun x y => ge_sndb x y = true)); [intros x y; apply Qle_bool_iff|].
  apply (isort_sorted ge_sndb).
  - intros x y. apply Qge_bool_total.
  - intros x y z. apply Qge_bool_trans.
Qed.

(* a descending list starts at its maximum and ends at its minimum *)
Lemma sorted_desc_head_max f v rest : StronglySorted ge_snd ((f, v) :: rest) -> v == qmax (map snd ((f, v) :: rest)).
Proof.
  intros H. apply StronglySorted_inv in H. destruct H as [_ Hall]. rewrite Forall_forall in Hall.
  apply qmax_unique; [now left|]. intros x [<-|Hx]; [apply Qle_refl|].
  apply in_map_snd in Hx. destruct Hx as [k Hk]. exact (Hall _ Hk).
Qed.

Lemma sorted_desc_last_min front f v : StronglySorted ge_snd (front ++ [(f, v)]) -> v == qmin (map snd (front ++ [(f, v)])).
Proof.
  intros H. apply qmin_unique; [rewrite map_app; apply in_or_app; right; now left|].
  intros x Hx. apply in_map_snd in Hx. destruct Hx as [k Hk]. apply in_app_or in Hk. destruct Hk as [Hk|[Hk|[]]].
  - induction front as [|a front IH]; [destruct Hk|]. cbn [app] in H. apply StronglySorted_inv in H. destruct H as [Hs Hall].
    destruct Hk as [->|Hk]; [|apply IH; assumption].
    rewrite Forall_forall in Hall. apply (Hall (f, v)). apply in_or_app. right. now left.
  - injection Hk as _ <-. apply Qle_refl.
Qed.

Lemma minmax_mono lo hi a b : lo <= hi -> a <= b -> minmax lo hi a <= minmax lo hi b.
Proof.
  intros Hlh Hab. unfold minmax, Qdiv. apply Qmult_le_compat_r.
  - unfold Qminus. apply Qplus_le_compat; [exact Hab|apply Qle_refl].
  - apply Qinv_le_0_compat. apply Qle_minus_iff in Hlh. exact Hlh.
Qed.

Lemma minmax_strict lo hi a b : lo < hi -> a < b -> minmax lo hi a < minmax lo hi b.
Proof.
  intros Hlh Hab. unfold minmax, Qdiv. apply Qmult_lt_compat_r.
  - apply Qinv_lt_0_compat. apply Qlt_minus_iff in Hlh. exact Hlh.
  - unfold Qminus. apply Qplus_lt_le_compat; [exact Hab|apply Qle_refl].
Qed.

Lemma minmax_lo lo hi v : v == lo -> minmax lo hi v == 0.
Proof. intros H. unfold minmax. rewrite H. unfold Qdiv, Qminus. rewrite Qplus_opp_r. apply Qmult_0_l. Qed.

Lemma minmax_hi lo hi v : lo < hi -> v == hi -> minmax lo hi v == 1.
Proof.
  intros Hlh H. unfold minmax. rewrite H. unfold Qdiv. apply Qmult_inv_r.
  intros E. apply Qlt_minus_iff in Hlh. unfold Qminus in E. rewrite E in Hlh. discriminate.
Qed.

Lemma minmax_range lo hi v : lo < hi -> lo <= v -> v <= hi -> 0 <= minmax lo hi v /\ minmax lo hi v <= 1.
Proof.
  intros Hlh H1 H2. split.
  - rewrite <- (minmax_lo lo hi lo) by reflexivity. apply minmax_mono; [apply Qlt_le_weak; exact Hlh|exact H1].
  - rewrite <- (minmax_hi lo hi hi Hlh) by reflexivity. apply minmax_mono; [apply Qlt_le_weak; exact Hlh|exact H2].
Qed.

Lemma normalise_fst l : map fst (normalise l) = map fst l.
Proof. unfold normalise. rewrite map_map. reflexivity. Qed.

Lemma normalise_in l f v : In (f, v) (normalise l) <->
  exists s, In (f, s) l /\ v = minmax (qmin (map snd l)) (qmax (map snd l)) s.
Proof. exact (in_map_value _ l f v). Qed.

Lemma normalise_sorted l : StronglySorted ge_snd l -> StronglySorted ge_snd (normalise l).
Proof.
  intros H. destruct l as [|a t]; [constructor|]. unfold normalise. apply StronglySorted_map.
  apply (StronglySorted_weaken ge_snd); [|exact H]. unfold ge_snd. cbn [snd]. intros x y Hxy.
  apply minmax_mono; [apply qmin_le_qmax; discriminate|exact Hxy].
Qed.

Lemma singles_def heur lbl T : singles heur lbl T = if has_MI heur then normalise (pre lbl T) else pre lbl T.
Proof. reflexivity. Qed.

Lemma singles_fst heur lbl T : map fst (singles heur lbl T) = map fst (pre lbl T).
Proof. rewrite singles_def. destruct (has_MI heur); [apply normalise_fst|reflexivity]. Qed.

Lemma pre_fst_perm lbl T : Permutation (map fst (pre lbl T)) (map fst (medians lbl T)).
Proof. apply Permutation_map. apply sort_desc_perm. Qed.

Lemma pre_nodup lbl T : NoDup (map fst (pre lbl T)).
Proof. eapply Permutation_NoDup; [symmetry; apply pre_fst_perm|]. apply group_median_nodup. Qed.

Lemma pre_keys lbl T f : In f (map fst (pre lbl T)) <-> In f (map fst (medians lbl T)).
Proof. split; apply Permutation_in; [|symmetry]; apply pre_fst_perm. Qed.

Theorem singles_once heur lbl T :
  NoDup (map fst (singles heur lbl T)) /\
  forall f, In f (map fst (singles heur lbl T)) <-> exists t s, In t T /\ label_partner lbl t = Some (f, s).
Proof.
  rewrite singles_fst. split; [apply pre_nodup|]. intros f. rewrite pre_keys. apply medians_keys.
Qed.

Definition label_scores (lbl : name) (T : list triplet) (f : name) : list Q := scores_of f (final_ranking lbl T).

Lemma pre_in lbl T f v : In (f, v) (pre lbl T) -> v = qmedian (label_scores lbl T f).
Proof.
  intros H. apply (Permutation_in _ (sort_desc_perm _)) in H. apply group_median_in in H. exact H.
Qed.

Theorem singles_median heur lbl T f v : In (f, v) (singles heur lbl T) ->
  let m := qmedian (label_scores lbl T f) in
  v = if has_MI heur then minmax (qmin (map snd (pre lbl T))) (qmax (map snd (pre lbl T))) m else m.
Proof.
  rewrite singles_def. destruct (has_MI heur); intros H; cbn zeta.
  - apply normalise_in in H. destruct H as [s [Hin ->]]. apply pre_in in Hin. subst s. reflexivity.
  - apply pre_in. exact H.
Qed.

Lemma label_scores_in lbl T f s : In s (label_scores lbl T f) <-> exists t, In t T /\ label_partner lbl t = Some (f, s).
Proof. unfold label_scores. rewrite in_scores_of. apply final_ranking_in. Qed.

(* the order of the rows of pairwise_ranks.tsv is immaterial (so is the code's initial sort by Score) *)
Theorem row_order_irrelevant lbl T T' f : Permutation T T' -> Forall (fun t => reduced (snd t)) T ->
  qmedian (label_scores lbl T f) = qmedian (label_scores lbl T' f).
Proof.
  intros Hp Hred. apply qmedian_perm.
  - rewrite Forall_forall in *. intros s Hs. apply label_scores_in in Hs. destruct Hs as [[[a b] s'] [Ht Hl]].
    apply label_partner_spec in Hl. destruct Hl as [-> _]. apply (Hred (a, b, s') Ht).
  - unfold label_scores, scores_of. apply Permutation_map. apply Permutation_filter.
    unfold final_ranking. apply Permutation_flat_map. exact Hp.
Qed.

Theorem singles_sorted heur lbl T : StronglySorted ge_snd (singles heur lbl T).
Proof.
  rewrite singles_def. destruct (has_MI heur); [apply normalise_sorted|]; apply sort_desc_sorted.
Qed.

Theorem singles_minmax heur lbl T :
  has_MI heur = true ->
  let m := pre lbl T in
  let lo := qmin (map snd m) in
  let hi := qmax (map snd m) in
  (exists f g v w, In (f, v) m /\ In (g, w) m /\ ~ v == w) ->
  singles heur lbl T = map (fun r => (fst r, minmax lo hi (snd r))) m
  /\ lo < hi
  /\ (forall f v, In (f, v) m -> (0 <= minmax lo hi v /\ minmax lo hi v <= 1)
                              /\ (v == hi -> minmax lo hi v == 1) /\ (v == lo -> minmax lo hi v == 0))
  /\ (exists f, In (f, hi) m) /\ (exists f, In (f, lo) m)
  /\ (forall f v rest, m = (f, v) :: rest -> minmax lo hi v == 1)
  /\ (forall f v front, m = front ++ [(f, v)] -> minmax lo hi v == 0)
  /\ (forall v w, v < w -> minmax lo hi v < minmax lo hi w)
  /\ (forall v w, v <= w -> minmax lo hi v <= minmax lo hi w).
Proof.
  intros HMI m lo hi [f [g [v [w [Hf [Hg Hvw]]]]]].
  assert (Hin : forall f v, In (f, v) m -> In v (map snd m)) by (intros f0 v0 H; exact (in_map snd m (f0, v0) H)).
  assert (Hne : map snd m <> []) by (intros E; apply Hin in Hf; rewrite E in Hf; destruct Hf).
  assert (Hlt : lo < hi) by (apply (qmin_lt_qmax _ v w); [eapply Hin; exact Hf|eapply Hin; exact Hg|exact Hvw]).
  assert (Hsorted : StronglySorted ge_snd m) by apply sort_desc_sorted.
  split; [rewrite singles_def, HMI; reflexivity|]. split; [exact Hlt|]. split.
  { intros f0 v0 H0. split; [|split].
    - apply minmax_range; [exact Hlt|apply qmin_le|apply qmax_ge]; eapply Hin; exact H0.
    - apply minmax_hi. exact Hlt.
    - apply minmax_lo. }
  split; [apply in_map_snd, qmax_in, Hne|]. split; [apply in_map_snd, qmin_in, Hne|]. split.
  { intros f0 v0 rest Hm. apply minmax_hi; [exact Hlt|]. unfold hi. rewrite Hm in Hsorted |- *.
    apply sorted_desc_head_max. exact Hsorted. }
  split.
  { intros f0 v0 front Hm. apply minmax_lo. unfold lo. rewrite Hm in Hsorted |- *.
    apply sorted_desc_last_min. exact Hsorted. }
  split.
  - intros a b Hab. apply minmax_strict; assumption.
  - intros a b Hab. apply minmax_mono; [apply Qlt_le_weak; exact Hlt|exact Hab].
Qed.

Lemma feature_store_in final c s :
  In (c, s) (feature_store final) <-> exists f, In (f, s) final /\ contains SEP_ f = true /\ In c (constituents f).
Proof.
  unfold feature_store. rewrite in_flat_map. split.
  - intros [[f s'] [Hin H]]. cbn [fst snd] in H. destruct (contains SEP_ f) eqn:E; [|destruct H].
    apply in_map_iff in H. destruct H as [el [Heq Hel]]. injection Heq as <- <-. exists f. auto.
  - intros [f [Hin [Hc Hel]]]. exists (f, s). split; [exact Hin|]. cbn [fst snd]. rewrite Hc.
    apply in_map_iff. exists c. auto.
Qed.

Lemma aggregated_keys final c : In c (map fst (aggregated final)) <->
  exists f s, In (f, s) final /\ contains SEP_ f = true /\ In c (constituents f).
Proof.
  unfold aggregated. rewrite group_median_keys. split.
  - intros [s Hin]. apply feature_store_in in Hin. destruct Hin as [f H]. exists f, s. exact H.
  - intros [f [s H]]. exists s. apply feature_store_in. exists f. exact H.
Qed.

Lemma before_dash_nodash x r : nodash x -> before_dash (x ++ r) = x ++ before_dash r.
Proof.
  induction x as [|c t IH]; intros H; [reflexivity|]. cbn [app before_dash].
  destruct (N.eqb_spec c DASH) as [E|E]; [exfalso; apply (H c); [now left|exact E]|].
  f_equal. apply IH. intros ch Hch. apply H. now right.
Qed.

Lemma nodash_sep : nodash SEP_.
Proof. intros ch H. cbn in H. intuition (subst; discriminate). Qed.

Lemma nodash_app x y : nodash x -> nodash y -> nodash (x ++ y).
Proof. intros Hx Hy ch H. apply in_app_or in H. destruct H; [apply Hx|apply Hy]; assumption. Qed.

Lemma nodash_join cs : Forall nodash cs -> nodash (join_and cs).
Proof.
  induction 1 as [|c r Hc Hr IH]; [intros ch []|]. cbn [join_and]. destruct r as [|c2 r']; [exact Hc|].
  apply nodash_app; [exact Hc|]. apply nodash_app; [apply nodash_sep|exact IH].
Qed.

Lemma before_dash_render cs annot : Forall nodash cs -> before_dash (render cs annot) = join_and cs.
Proof.
  intros H. unfold render. rewrite before_dash_nodash by (apply nodash_join; exact H).
  destruct annot as [a|]; apply app_nil_r.
Qed.

Theorem label_rule lbl cs annot : Forall nodash cs -> (is_label lbl (render cs annot) = true <-> join_and cs = lbl).
Proof.
  intros H. unfold is_label. rewrite before_dash_render by exact H. rewrite name_eqb_eq. split; congruence.
Qed.

Definition AND4 : name := [32; 65; 78; 68]%N.     (* " AND" *)

Lemma sepfree_cons x c : sepfree (x :: c) -> prefixb SEP_ ((x :: c) ++ AND4) = false /\ sepfree c.
Proof. unfold sepfree. fold AND4. cbn [app contains]. apply orb_false_elim. Qed.

Lemma prefixb_app_true p a b : prefixb p a = true -> prefixb p (a ++ b) = true.
Proof.
  revert a. induction p as [|x p IH]; intros a H; [reflexivity|]. destruct a as [|y a]; [discriminate|].
  cbn [prefixb app] in *. apply andb_prop in H. destruct H as [H1 H2]. rewrite H1, (IH a H2). reflexivity.
Qed.

(* whether p starts a text is decided by as many characters as p has *)
Lemma prefixb_app_long p a b : (length p <= length a)%nat -> prefixb p (a ++ b) = prefixb p a.
Proof.
  revert a. induction p as [|x p IH]; intros a H; [reflexivity|]. destruct a as [|y a]; [cbn in H; lia|].
  cbn [prefixb app]. rewrite IH by (cbn in H; lia). reflexivity.
Qed.

(* a match of p running over a character that p does not contain lies before that character *)
Lemma prefixb_stop p v d a : ~ In d p -> prefixb p (v ++ d :: a) = true -> prefixb p v = true.
Proof.
  revert v. induction p as [|x p IH]; intros v Hd H; [reflexivity|]. destruct v as [|y v]; cbn [prefixb app] in *.
  - apply andb_prop in H. destruct H as [H _]. apply N.eqb_eq in H. subst. exfalso. apply Hd. now left.
  - apply andb_prop in H. destruct H as [H1 H2]. rewrite H1. apply IH; [|exact H2]. intros I. apply Hd. now right.
Qed.

(* What may follow a constituent: a text [r] such that a match of ' AND ' starting inside a non-empty v and running into r
   already shows in v ++ " AND".  Then [sepfree] constituents contain no start of a match. *)
Definition tail_ok (r : name) : Prop :=
  forall v, v <> [] -> prefixb SEP_ (v ++ r) = true -> prefixb SEP_ (v ++ AND4) = true.

Lemma tail_ok_nil : tail_ok [].
Proof. intros v _ H. rewrite app_nil_r in H. apply prefixb_app_true. exact H. Qed.

(* the joiner itself: it begins with " AND", and a non-empty v followed by " AND" already has the five characters that decide *)
Lemma tail_ok_sep rest : tail_ok (SEP_ ++ rest).
Proof.
  intros v Hne H. change (SEP_ ++ rest) with (AND4 ++ 32%N :: rest) in H.
  rewrite app_assoc, prefixb_app_long in H; [exact H|]. rewrite app_length. destruct v; [congruence|cbn; lia].
Qed.

(* a dash: it is no character of the joiner, so the match lies inside v *)
Lemma tail_ok_dash a : tail_ok (DASH :: a).
Proof.
  intros v _ H. apply prefixb_app_true. apply (prefixb_stop SEP_ v DASH a); [|exact H].
  intros I. exact (nodash_sep DASH I eq_refl).
Qed.

Lemma sepfree_no_match x c r : sepfree (x :: c) -> tail_ok r -> prefixb SEP_ (x :: c ++ r) = false.
Proof.
  intros H Hr. destruct (prefixb SEP_ (x :: c ++ r)) eqn:E; [|reflexivity].
  apply (Hr (x :: c)) in E; [|discriminate]. destruct (sepfree_cons x c H) as [Hp _]. congruence.
Qed.

Lemma contains_sepfree_app c r : sepfree c -> tail_ok r -> contains SEP_ (c ++ r) = contains SEP_ r.
Proof.
  intros H Hr. induction c as [|x c IH]; [reflexivity|]. cbn [app].
  change (contains SEP_ (x :: c ++ r)) with (prefixb SEP_ (x :: c ++ r) || contains SEP_ (c ++ r)).
  rewrite (sepfree_no_match x c r H Hr). apply IH. exact (proj2 (sepfree_cons x c H)).
Qed.

Lemma split_clean c : forall cur rest, sepfree c -> tail_ok rest ->
  split_aux SEP_ O cur (c ++ rest) = split_aux SEP_ O (rev c ++ cur) rest.
Proof.
  induction c as [|ch c IH]; intros cur rest H Hrest; [reflexivity|].
  cbn [app rev]. rewrite <- app_assoc. cbn [app]. rewrite <- (IH (ch :: cur) rest (proj2 (sepfree_cons _ _ H)) Hrest).
  cbn [split_aux]. rewrite (sepfree_no_match ch c rest H Hrest). reflexivity.
Qed.

Lemma split_sep cur rest : split_aux SEP_ O cur (SEP_ ++ rest) = rev cur :: split_aux SEP_ O [] rest.
Proof. reflexivity. Qed.

Theorem constituents_join cs : cs <> [] -> Forall sepfree cs -> split_on SEP_ (join_and cs) = cs.
Proof.
  unfold split_on. intros Hne H. induction H as [|c r Hc Hr IH]; [congruence|]. cbn [join_and].
  destruct r as [|c2 r'].
  - rewrite <- (app_nil_r c) at 1. rewrite (split_clean c [] [] Hc tail_ok_nil).
    cbn [split_aux]. rewrite app_nil_r, rev_involutive. reflexivity.
  - rewrite (split_clean c [] _ Hc (tail_ok_sep _)).
    rewrite split_sep. rewrite app_nil_r, rev_involutive. f_equal. apply IH. discriminate.
Qed.

Theorem constituents_render cs annot : cs <> [] -> Forall nodash cs -> Forall sepfree cs ->
  constituents (render cs annot) = cs.
Proof. intros Hne Hd Hb. unfold constituents. rewrite before_dash_render by exact Hd. apply constituents_join; assumption. Qed.

Lemma contains_app_r p x y : contains p y = true -> contains p (x ++ y) = true.
Proof.
  intros H. induction x as [|a x IH]; [exact H|]. cbn [app contains]. rewrite IH. apply orb_true_r.
Qed.

Lemma contains_sep_interaction c1 c2 r annot : contains SEP_ (render (c1 :: c2 :: r) annot) = true.
Proof.
  unfold render. cbn [join_and]. rewrite <- !app_assoc. apply contains_app_r. reflexivity.
Qed.

Definition annot_ok (annot : option name) : Prop := match annot with None => True | Some a => contains SEP_ a = false end.

(* a single (non-interaction) name never contains the joiner — whatever else it contains (AND, BRAND, ...) *)
Lemma contains_sep_single c annot : sepfree c -> annot_ok annot -> contains SEP_ (render [c] annot) = false.
Proof.
  intros Hc Ha. unfold render. cbn [join_and]. destruct annot as [a|].
  - rewrite (contains_sepfree_app c _ Hc (tail_ok_dash a)). exact Ha.
  - rewrite (contains_sepfree_app c [] Hc tail_ok_nil). reflexivity.
Qed.

(* a table whose names are renderings of constituent lists *)
Definition wf_row := (list name * option name * Q)%type.
Definition render_row (r : wf_row) : name * Q := let '(cs, a, s) := r in (render cs a, s).

Theorem feature_store_wellformed (rows : list wf_row) :
  (forall cs a s, In (cs, a, s) rows -> cs <> [] /\ Forall nodash cs /\ Forall sepfree cs /\ annot_ok a) ->
  feature_store (map render_row rows) =
  flat_map (fun r => let '(cs, a, s) := r in if (2 <=? length cs)%nat then map (fun c => (c, s)) cs else []) rows.
Proof.
  intros Hwf. induction rows as [|[[cs a] s] rows IH]; [reflexivity|].
  cbn [map flat_map render_row]. unfold feature_store in *. cbn [flat_map fst snd]. f_equal.
  - destruct (Hwf cs a s (or_introl eq_refl)) as [Hne [Hd [Hb Ha]]].
    destruct cs as [|c1 [|c2 r]]; [congruence| |].
    + rewrite contains_sep_single; [reflexivity| |exact Ha]. inversion Hb; assumption.
    + rewrite contains_sep_interaction. rewrite constituents_render by assumption. reflexivity.
  - apply IH; intros; eapply Hwf; right; eassumption.
Qed.

(* four witnesses: the rule before the repair, and what the hypotheses on names exclude *)
Definition BRAND : name := [66; 82; 65; 78; 68]%N.
(* old rule ('AND' in fname): the plain feature BRAND is aggregated as its own constituent; new rule: it is not *)
Example and_substring_old_rule :
  map fst (group_median (feature_store_old [(BRAND, 1 # 2)])) = [BRAND] /\ aggregated [(BRAND, 1 # 2)] = [].
Proof. vm_compute. split; reflexivity. Qed.

(* label "my-label": the rule compares the text before the first '-', so no row is a label row *)
Example dash_label_empty :
  singles_cells [65]%N [109; 121; 45; 108]%N [([102]%N, [109; 121; 45; 108]%N, 1 # 2)] = [].
Proof. vm_compute. reflexivity. Qed.

(* constituent "a-b": cut at the dash *)
Example dash_constituent_cut :
  constituents (render [[97; 45; 98]%N; [99]%N] None) = [[97]%N].
Proof. vm_compute. reflexivity. Qed.

(* constituent "x AND" contains no ' AND ' but ends in ' AND': the leftmost match is not the joiner *)
Example sep_suffix_missplit :
  contains SEP_ [120; 32; 65; 78; 68]%N = false /\
  constituents (render [[120; 32; 65; 78; 68]%N; [121]%N] None) = [[120]%N; [65; 78; 68; 32; 121]%N].
Proof. vm_compute. split; reflexivity. Qed.

(* the checkers *)
Lemma nodupn_iff l : nodupn l = true <-> NoDup l.
Proof. exact (nodupb_iff_of memn nodupn memn_in eq_refl (fun _ _ => eq_refl) l). Qed.

Lemma subsetn_iff a b : subsetn a b = true <-> incl a b.
Proof.
  unfold subsetn, incl. rewrite forallb_forall. split; intros H x Hx; [apply memn_in|apply memn_in]; apply H; exact Hx.
Qed.

(* the first three conjuncts of every checker: the observed keys are, once each, the keys of the reference table *)
Lemma same_keysb_iff ks ref :
  nodupn ks && subsetn ks ref && subsetn ref ks = true <-> NoDup ks /\ forall k, In k ks <-> In k ref.
Proof.
  rewrite !andb_true_iff, nodupn_iff, !subsetn_iff. unfold incl. split.
  - intros [[Hnd H1] H2]. split; [exact Hnd|]. intros k. split; [apply H1|apply H2].
  - intros [Hnd H]. repeat split; [exact Hnd|intros k; apply H|intros k; apply H].
Qed.

Lemma close_iff tol a b : close tol a b = true <-> Qabs (a - b) <= tol.
Proof. unfold close. apply Qle_bool_iff. Qed.

Lemma close_refl a b : a == b -> close 0 a b = true.
Proof.
  intros H. apply close_iff. assert (E : a - b == 0) by (rewrite H; ring). rewrite E. cbn. apply Qle_refl.
Qed.

(* the per-row test of the checkers: the reference table lists f exactly once, with a value close to the observed one *)
Lemma score_close_sound (g : Q -> Q) a tol f x :
  match scores_of f a with [v] => close tol x (g v) | _ => false end = true ->
  exists v, In (f, v) a /\ Qabs (x - g v) <= tol.
Proof.
  destruct (scores_of f a) as [|v [|? ?]] eqn:E; try discriminate. intros H. exists v. split.
  - apply in_scores_of. rewrite E. now left.
  - apply close_iff. exact H.
Qed.

Definition adjacent_desc (tol : Q) (l : list Q) : Prop :=
  forall front x y rest, l = front ++ x :: y :: rest -> y <= x + tol.

Lemma sorted_desc_tolb_iff tol l : sorted_desc_tolb tol l = true <-> adjacent_desc tol l.
Proof.
  unfold adjacent_desc. induction l as [|x t IH]; cbn [sorted_desc_tolb].
  - split; [|reflexivity]. intros _ front x y rest H. destruct front; discriminate.
  - destruct t as [|y t'].
    + split; [|reflexivity]. intros _ front a b rest H. destruct front as [|c [|d front]]; discriminate.
    + rewrite andb_true_iff, Qle_bool_iff, IH. split.
      * intros [Hxy Ht] front a b rest H. destruct front as [|c front].
        -- cbn [app] in H. injection H as <- <- <-. exact Hxy.
        -- cbn [app] in H. injection H as <- H. eapply Ht. exact H.
      * intros H. split; [apply (H [] x y t' eq_refl)|]. intros front a b rest E. apply (H (x :: front) a b rest).
        cbn [app]. now rewrite E.
Qed.

Definition expected (heur lbl : name) (T : list triplet) (f : name) : Q :=
  let m := medians lbl T in
  let v := qmedian (label_scores lbl T f) in
  if has_MI heur then minmax (qmin (map snd m)) (qmax (map snd m)) v else v.

Theorem singles_okb_sound tol heur lbl T obs : singles_okb tol heur lbl T obs = true ->
  NoDup (map fst obs)
  /\ (forall f, In f (map fst obs) <-> exists t s, In t T /\ label_partner lbl t = Some (f, s))
  /\ adjacent_desc tol (map snd obs)
  /\ (forall f x, In (f, x) obs -> Qabs (x - expected heur lbl T f) <= tol).
Proof.
  unfold singles_okb. rewrite (andb_true_iff _ (forallb _ _)), (andb_true_iff _ (sorted_desc_tolb _ _)), same_keysb_iff, sorted_desc_tolb_iff, forallb_forall.
  intros [[[Hnd Hk] Hs] Hv]. split; [exact Hnd|]. split; [|split; [exact Hs|]].
  - intros f. rewrite Hk. apply medians_keys.
  - intros f x Hin. specialize (Hv (f, x) Hin). cbn [fst snd] in Hv.
    apply (score_close_sound (fun v => if has_MI heur then minmax _ _ v else v)) in Hv.
    destruct Hv as [v [Hfv Hv]]. unfold medians in Hfv. apply group_median_in in Hfv.
    unfold expected, label_scores. rewrite <- Hfv. exact Hv.
Qed.

Lemma sorted_adjacent l : StronglySorted ge_snd l -> adjacent_desc 0 (map snd l).
Proof.
  intros H front x y rest E. rewrite Qplus_0_r.
  revert front E. induction H as [|a t Hs IH Hall]; intros front E; [destruct front; discriminate|].
  destruct front as [|c front]; cbn [map app] in E.
  - injection E as <- E. destruct t as [|b t']; [discriminate|]. cbn [map] in E. injection E as <- _.
    rewrite Forall_forall in Hall. apply (Hall b). now left.
  - injection E as _ E. eapply IH. exact E.
Qed.

Theorem singles_model_ok heur lbl T : singles_okb 0 heur lbl T (singles heur lbl T) = true.
Proof.
  unfold singles_okb. rewrite (andb_true_iff _ (forallb _ _)), (andb_true_iff _ (sorted_desc_tolb _ _)), same_keysb_iff, sorted_desc_tolb_iff, forallb_forall.
  split; [split; [split|]|].
  - apply singles_once.
  - intros k. rewrite singles_fst. apply pre_keys.
  - apply sorted_adjacent. apply singles_sorted.
  - intros [f v] Hin. cbn [fst snd]. rewrite singles_def in Hin.
    assert (Hpm : forall s, In (f, s) (pre lbl T) -> scores_of f (medians lbl T) = [s]).
    { intros s Hs. apply scores_of_unique; [apply group_median_nodup|]. eapply Permutation_in; [apply sort_desc_perm|exact Hs]. }
    destruct (has_MI heur).
    + apply normalise_in in Hin. destruct Hin as [s [Hs ->]]. rewrite (Hpm s Hs). apply close_refl.
      assert (Hps : Permutation (map snd (pre lbl T)) (map snd (medians lbl T))) by (apply Permutation_map, sort_desc_perm).
      unfold minmax. rewrite (qmin_perm _ _ Hps), (qmax_perm _ _ Hps). reflexivity.
    + rewrite (Hpm v Hin). apply close_refl. reflexivity.
Qed.

Theorem aggregated_okb_sound tol final obs : aggregated_okb tol final obs = true ->
  NoDup (map fst obs)
  /\ (forall c, In c (map fst obs) <-> exists f s, In (f, s) final /\ contains SEP_ f = true /\ In c (constituents f))
  /\ (forall c x, In (c, x) obs -> Qabs (x - qmedian (scores_of c (feature_store final))) <= tol).
Proof.
  unfold aggregated_okb. rewrite andb_true_iff, same_keysb_iff, forallb_forall.
  intros [[Hnd Hk] Hv]. split; [exact Hnd|]. split.
  - intros c. rewrite Hk. apply aggregated_keys.
  - intros c x Hin. specialize (Hv (c, x) Hin). cbn [fst snd] in Hv.
    apply (score_close_sound (fun v => v)) in Hv. destruct Hv as [v [Hcv Hv]].
    apply group_median_in in Hcv. rewrite <- Hcv. exact Hv.
Qed.

Theorem aggregated_model_ok final : aggregated_okb 0 final (aggregated final) = true.
Proof.
  unfold aggregated_okb. rewrite andb_true_iff, same_keysb_iff, forallb_forall.
  assert (Hnd : NoDup (map fst (aggregated final))) by apply group_median_nodup. split; [split; [exact Hnd|tauto]|].
  intros [c v] Hin. cbn [fst snd]. rewrite (scores_of_unique _ c v Hnd Hin). apply close_refl. reflexivity.
Qed.

Lemma some_cells_fst l : map fst (some_cells l) = map fst l.
Proof. unfold some_cells. rewrite map_map. reflexivity. Qed.

Lemma nan_cells_fst l : map fst (nan_cells l) = map fst l.
Proof. unfold nan_cells. rewrite map_map. reflexivity. Qed.

Lemma singles_cells_fst heur lbl T : map fst (singles_cells heur lbl T) = map fst (pre lbl T).
Proof.
  unfold singles_cells. destruct (nan_table heur lbl T); [apply nan_cells_fst|].
  rewrite some_cells_fst. apply singles_fst.
Qed.

Lemma pre_scores_nonnil lbl T : pre lbl T <> [] -> map snd (pre lbl T) <> [].
Proof. intros Hne E. apply map_eq_nil in E. contradiction. Qed.

Lemma nan_table_true heur lbl T : nan_table heur lbl T = true <->
  has_MI heur = true /\ pre lbl T <> [] /\ qmin (map snd (pre lbl T)) == qmax (map snd (pre lbl T)).
Proof.
  unfold nan_table. rewrite andb_true_iff, degenerate_iff. split.
  - intros [H [Hne He]]. repeat split; try assumption. intros E. rewrite E in Hne. apply Hne. reflexivity.
  - intros [H [Hne He]]. repeat split; try assumption. apply pre_scores_nonnil. exact Hne.
Qed.

Lemma nan_table_false_lt heur lbl T : nan_table heur lbl T = false -> has_MI heur = true -> pre lbl T <> [] ->
  qmin (map snd (pre lbl T)) < qmax (map snd (pre lbl T)).
Proof.
  unfold nan_table. intros Hn HMI Hne. rewrite HMI in Hn.
  apply degenerate_false_lt; [apply pre_scores_nonnil; exact Hne|exact Hn].
Qed.

Lemma in_some_cells l f c : In (f, c) (some_cells l) <-> exists v, In (f, v) l /\ c = Some v.
Proof. exact (in_map_value Some l f c). Qed.

Lemma in_nan_cells l f c : In (f, c) (nan_cells l) <-> exists v, In (f, v) l /\ c = None.
Proof. exact (in_map_value (fun _ => None) l f c). Qed.

(* a numeric cell: the table is not the NaN table, the value is the one [singles] lists, and under an MI heuristic min < max *)
Theorem cells_some heur lbl T f v : In (f, Some v) (singles_cells heur lbl T) ->
  nan_table heur lbl T = false /\ In (f, v) (singles heur lbl T) /\
  (has_MI heur = true -> qmin (map snd (pre lbl T)) < qmax (map snd (pre lbl T))).
Proof.
  unfold singles_cells. destruct (nan_table heur lbl T) eqn:En.
  - intros H. apply in_nan_cells in H. destruct H as [w [_ Hw]]. discriminate.
  - intros H. apply in_some_cells in H. destruct H as [w [Hin Hw]]. injection Hw as <-.
    split; [reflexivity|]. split; [exact Hin|]. intros HMI. apply (nan_table_false_lt heur lbl T En HMI).
    intros E. pose proof (in_map fst _ _ Hin) as Hf. rewrite singles_fst, E in Hf. destruct Hf.
Qed.

(* a NaN cell: MI heuristic and all medians coincide (in particular: a single listed feature) *)
Theorem cells_none heur lbl T f : In (f, None) (singles_cells heur lbl T) ->
  has_MI heur = true /\ (forall g w, In (g, w) (pre lbl T) -> w == qmin (map snd (pre lbl T))) /\
  (forall g c, In (g, c) (singles_cells heur lbl T) -> c = None).
Proof.
  unfold singles_cells. destruct (nan_table heur lbl T) eqn:En.
  - intros _. unfold nan_table in En. apply andb_true_iff in En. destruct En as [HMI Hd]. split; [exact HMI|]. split.
    + intros g w Hin. apply (degenerate_all_min _ _ Hd). exact (in_map snd _ (g, w) Hin).
    + intros g c Hin. apply in_nan_cells in Hin. destruct Hin as [w [_ Hc]]. exact Hc.
  - intros H. apply in_some_cells in H. destruct H as [w [_ Hw]]. discriminate.
Qed.

Lemma nan_table_distinct heur lbl T :
  (exists f g v w, In (f, v) (pre lbl T) /\ In (g, w) (pre lbl T) /\ ~ v == w) -> nan_table heur lbl T = false.
Proof.
  intros [f [g [v [w [Hf [Hg Hvw]]]]]]. destruct (nan_table heur lbl T) eqn:En; [|reflexivity]. exfalso.
  apply nan_table_true in En. destruct En as [_ [_ He]].
  pose proof (qmin_lt_qmax _ v w (in_map snd _ (f, v) Hf) (in_map snd _ (g, w) Hg) Hvw) as Hlt.
  rewrite He in Hlt. exact (Qlt_irrefl _ Hlt).
Qed.

Lemma unwrap_some obs : forall o, unwrap obs = Some o -> obs = some_cells o.
Proof.
  induction obs as [|[f [v|]] t IH]; intros o H; cbn [unwrap] in H.
  - injection H as <-. reflexivity.
  - destruct (unwrap t) as [r|]; [|discriminate]. injection H as <-. cbn. f_equal. apply IH. reflexivity.
  - discriminate.
Qed.

Lemma unwrap_some_cells l : unwrap (some_cells l) = Some l.
Proof. induction l as [|[f v] l IH]; [reflexivity|]. cbn. unfold some_cells in IH. rewrite IH. reflexivity. Qed.

Lemma all_nan_iff l : all_nan l = true <-> forall f c, In (f, c) l -> c = None.
Proof.
  unfold all_nan. rewrite forallb_forall. split.
  - intros H f c Hin. specialize (H (f, c) Hin). cbn in H. destruct c; [discriminate|reflexivity].
  - intros H [f c] Hin. cbn. rewrite (H f c Hin). reflexivity.
Qed.

Lemma all_nan_nan_cells l : all_nan (nan_cells l) = true.
Proof. apply all_nan_iff. intros f c H. apply in_nan_cells in H. destruct H as [w [_ Hc]]. exact Hc. Qed.

Lemma unwrap_nan_cells l : l <> [] -> unwrap (nan_cells l) = None.
Proof. destruct l as [|[f v] l]; [congruence|reflexivity]. Qed.

Theorem cells_okb_sound tol heur lbl T obs : cells_okb tol heur lbl T obs = true ->
  NoDup (map fst obs)
  /\ (forall f, In f (map fst obs) <-> exists t s, In t T /\ label_partner lbl t = Some (f, s))
  /\ (if nan_table heur lbl T then forall f c, In (f, c) obs -> c = None
      else exists o, obs = some_cells o /\ adjacent_desc tol (map snd o)
                     /\ forall f x, In (f, x) o -> Qabs (x - expected heur lbl T f) <= tol).
Proof.
  unfold cells_okb. destruct (nan_table heur lbl T).
  - rewrite andb_true_iff, same_keysb_iff, all_nan_iff. intros [[Hnd Hk] Hn].
    split; [exact Hnd|]. split; [|exact Hn]. intros f. rewrite Hk. apply medians_keys.
  - destruct (unwrap obs) as [o|] eqn:E; [|discriminate]. intros H. apply unwrap_some in E. subst obs.
    apply singles_okb_sound in H. destruct H as [Hnd [Hk [Hs Hv]]]. rewrite some_cells_fst.
    split; [exact Hnd|]. split; [exact Hk|]. exists o. auto.
Qed.

Theorem cells_model_ok heur lbl T : cells_okb 0 heur lbl T (singles_cells heur lbl T) = true.
Proof.
  unfold cells_okb, singles_cells. destruct (nan_table heur lbl T).
  - rewrite andb_true_iff, same_keysb_iff, nan_cells_fst.
    split; [split; [apply pre_nodup|apply pre_keys]|apply all_nan_nan_cells].
  - rewrite unwrap_some_cells. apply singles_model_ok.
Qed.

Lemma feature_store_fst l :
  map fst (feature_store l) = flat_map (fun n => if contains SEP_ n then constituents n else []) (map fst l).
Proof.
  unfold feature_store. induction l as [|[f s] l IH]; [reflexivity|]. cbn [flat_map map fst snd].
  rewrite map_app, IH. f_equal. destruct (contains SEP_ f); [|reflexivity]. rewrite map_map. cbn [fst]. apply map_id.
Qed.

Lemma aggregated_keys_names l l' : map fst l = map fst l' -> map fst (aggregated l) = map fst (aggregated l').
Proof. intros H. unfold aggregated. rewrite !group_median_fst, !feature_store_fst, H. reflexivity. Qed.

Theorem aggregated_cells_model_ok heur lbl T :
  aggregated_cells_okb 0 (singles_cells heur lbl T) (aggregated_cells heur lbl T) = true.
Proof.
  unfold aggregated_cells_okb, singles_cells, aggregated_cells. destruct (nan_table heur lbl T) eqn:En.
  - apply nan_table_true in En. destruct En as [_ [Hne _]]. rewrite (unwrap_nan_cells _ Hne).
    rewrite !andb_true_iff, nodupn_iff, !subsetn_iff, !all_nan_nan_cells, nan_cells_fst.
    assert (Hk : map fst (aggregated (map (fun r : name * option Q => (fst r, 0)) (nan_cells (pre lbl T)))) = map fst (aggregated (pre lbl T))).
    { apply aggregated_keys_names. rewrite map_map. cbn [fst]. apply nan_cells_fst. }
    rewrite Hk. repeat split; try apply incl_refl. apply group_median_nodup.
  - rewrite !unwrap_some_cells. apply aggregated_model_ok.
Qed.

Theorem aggregated_cells_okb_sound tol final obs : aggregated_cells_okb tol final obs = true ->
  (exists f o, final = some_cells f /\ obs = some_cells o /\ aggregated_okb tol f o = true)
  \/ ((forall g c, In (g, c) final -> c = None) /\ (forall g c, In (g, c) obs -> c = None) /\ NoDup (map fst obs) /\
      forall k, In k (map fst obs) <-> In k (map fst (aggregated (map (fun r => (fst r, 0)) final)))).
Proof.
  unfold aggregated_cells_okb. destruct (unwrap final) as [f|] eqn:Ef.
  - destruct (unwrap obs) as [o|] eqn:Eo; [|discriminate]. intros H. left. exists f, o.
    apply unwrap_some in Ef. apply unwrap_some in Eo. auto.
  - rewrite !andb_true_iff, !all_nan_iff, nodupn_iff, !subsetn_iff. intros [[[[H1 H2] H3] H4] H5]. right.
    repeat split; try assumption; [apply H4|apply H5].
Qed.

Example ex_T : list triplet :=
  [ ([97; 32; 65; 78; 68; 32; 98; 45; 40; 51; 59; 32; 57; 41]%N, [121; 45; 40; 50; 59; 32; 57; 41]%N, 1 # 2);   (* "a AND b-(3; 9)", "y-(2; 9)" *)
    ([121; 45; 40; 50; 59; 32; 57; 41]%N, [97; 32; 65; 78; 68; 32; 99]%N, 3 # 4);                                (* "y-(2; 9)", "a AND c" *)
    ([97; 32; 65; 78; 68; 32; 99]%N, [121]%N, 5 # 4);                                                          (* "a AND c", "y" *)
    ([121]%N, [121]%N, 2 # 1);                                                                                 (* "y", "y" *)
    ([97]%N, [98]%N, 5 # 1) ].                                                                                 (* "a", "b": no label *)

Definition redq (l : list (name * option Q)) : list (name * option Q) := map (fun r => (fst r, option_map Qred (snd r))) l.

(* heuristic "MI", label "y", interaction order 2: y -> 1, "a AND c" -> 1/3, "a AND b-(3; 9)" -> 0; a -> 1/6, c -> 1/3, b -> 0 *)
Example ex_summary :
  (redq (fst (summary [77; 73]%N [121]%N 2 ex_T)), option_map redq (snd (summary [77; 73]%N [121]%N 2 ex_T))) =
  ([([121]%N, Some 1); ([97; 32; 65; 78; 68; 32; 99]%N, Some (1 # 3)); ([97; 32; 65; 78; 68; 32; 98; 45; 40; 51; 59; 32; 57; 41]%N, Some 0)],
   Some [([97]%N, Some (1 # 6)); ([99]%N, Some (1 # 3)); ([98]%N, Some 0)]).
Proof. vm_compute. reflexivity. Qed.

(* a non-MI heuristic keeps the medians; order 1 writes no aggregated table *)
Example ex_summary_plain :
  (redq (fst (summary [65; 66]%N [121]%N 1 ex_T)), snd (summary [65; 66]%N [121]%N 1 ex_T)) =
  ([([121]%N, Some 2); ([97; 32; 65; 78; 68; 32; 99]%N, Some 1); ([97; 32; 65; 78; 68; 32; 98; 45; 40; 51; 59; 32; 57; 41]%N, Some (1 # 2))], None).
Proof. vm_compute. reflexivity. Qed.

(* one listed feature under an MI heuristic: the code's 0/0, a NaN cell *)
Example ex_summary_nan :
  summary [77; 73]%N [121]%N 2 [([102]%N, [121]%N, 1 # 2)] = ([([102]%N, None)], Some []).
Proof. vm_compute. reflexivity. Qed.
