(* Facts about lists that Coq 8.16's List, Permutation and Sorted do not provide, each stated once for whichever files use it. *)
From Coq Require Import List Arith Lia Bool Permutation Sorting.Sorted.
Import ListNotations.

Lemma filter_map_comm {A B} (g : A -> B) (p : B -> bool) l :
  filter p (map g l) = map g (filter (fun a => p (g a)) l).
Proof. induction l as [|a l IH]; cbn [map filter]; [reflexivity|]. destruct (p (g a)); cbn [map]; now rewrite IH. Qed.

Lemma filter_length_le {A} (p : A -> bool) l : length (filter p l) <= length l.
Proof. induction l as [|a l IH]; cbn [filter length]; [lia|]. destruct (p a); cbn [length]; lia. Qed.

Lemma filter_negb_length {A} (p : A -> bool) l :
  length (filter (fun a => negb (p a)) l) + length (filter p l) = length l.
Proof. induction l as [|a l IH]; cbn [filter length]; [reflexivity|]. destruct (p a); cbn [negb length]; lia. Qed.

Lemma filter_length_pos {A} (p : A -> bool) l : 0 < length (filter p l) <-> exists x, In x l /\ p x = true.
Proof.
  split.
  - destruct (filter p l) as [|x r] eqn:E; cbn [length]; [lia|]. intros _. exists x.
    apply filter_In. rewrite E. now left.
  - intros [x Hx]. apply filter_In in Hx. destruct (filter p l); [contradiction|cbn [length]; lia].
Qed.

Lemma Permutation_filter {A} (p : A -> bool) l l' : Permutation l l' -> Permutation (filter p l) (filter p l').
Proof.
  induction 1 as [|x l l' _ IH|x y l|l l' l'' _ IH1 _ IH2]; cbn [filter].
  - constructor.
  - destruct (p x); [constructor|]; exact IH.
  - destruct (p x), (p y); try reflexivity. apply perm_swap.
  - etransitivity; eassumption.
Qed.

Lemma filter_length_perm {A} (p : A -> bool) l l' : Permutation l l' -> length (filter p l) = length (filter p l').
Proof. intros H. apply Permutation_length, Permutation_filter, H. Qed.

Lemma filter_all {A} (p : A -> bool) l : (forall x, In x l -> p x = true) -> filter p l = l.
Proof.
  induction l as [|x l IH]; intros H; [reflexivity|]. cbn [filter]. rewrite (H x (or_introl eq_refl)).
  f_equal. apply IH. intros y Hy. apply H. right. exact Hy.
Qed.

Lemma filter_none {A} (p : A -> bool) l : (forall x, In x l -> p x = false) -> filter p l = [].
Proof.
  induction l as [|a l IH]; intros H; cbn [filter]; [reflexivity|].
  rewrite (H a (or_introl eq_refl)). apply IH. intros x Hx. apply H. right. exact Hx.
Qed.

Section Eqb.
  Context {A : Type} (eqb : A -> A -> bool).
  Hypothesis eqb_eq : forall x y, eqb x y = true <-> x = y.

  Lemma existsb_eqb_In x l : existsb (eqb x) l = true <-> In x l.
  Proof.
    rewrite existsb_exists. split.
    - intros [y [Hy E]]. apply eqb_eq in E. subst. exact Hy.
    - intros H. exists x. split; [exact H|]. now apply eqb_eq.
  Qed.

  Lemma existsb_eqb_notin x l : existsb (eqb x) l = false <-> ~ In x l.
  Proof. rewrite <- existsb_eqb_In. symmetry. apply not_true_iff_false. Qed.

  Fixpoint eqb_list (a b : list A) : bool :=
    match a, b with
    | [], [] => true
    | x :: a', y :: b' => eqb x y && eqb_list a' b'
    | _, _ => false
    end.

  Lemma eqb_list_eq a b : eqb_list a b = true <-> a = b.
  Proof.
    revert b. induction a as [|x a IH]; intros [|y b]; cbn [eqb_list]; try (split; discriminate); [tauto|].
    rewrite andb_true_iff, eqb_eq, IH. split; [intros [-> ->]; reflexivity|intros E; injection E; auto].
  Qed.
End Eqb.

(* Each model writes its own boolean duplicate test [nd] by the usual recursion over its own membership test [mem];
   all of them decide NoDup.  Instance: [nodupb_iff_of memb nodupb memb_in eq_refl (fun _ _ => eq_refl)]. *)
Lemma nodupb_iff_of {A} (mem : A -> list A -> bool) (nd : list A -> bool) :
  (forall x l, mem x l = true <-> In x l) ->
  nd [] = true -> (forall h t, nd (h :: t) = negb (mem h t) && nd t) ->
  forall l, nd l = true <-> NoDup l.
Proof.
  intros Hmem Hnil Hcons. induction l as [|h t IH]; [rewrite Hnil; split; [constructor|reflexivity]|].
  rewrite Hcons, Bool.andb_true_iff, Bool.negb_true_iff, IH, <- Bool.not_true_iff_false, Hmem. split.
  - intros [Hn Hd]. constructor; assumption.
  - intros H. inversion H; subst. split; assumption.
Qed.

(* a duplicate-free list [seen] with the elements consumed so far [done], kept so when one more element arrives *)
Lemma seen_snoc {A} (mem : A -> list A -> bool) seen done x :
  (forall y l, mem y l = true <-> In y l) -> NoDup seen -> (forall u, In u seen <-> In u done) ->
  NoDup (if mem x seen then seen else x :: seen) /\
  forall u, In u (if mem x seen then seen else x :: seen) <-> In u (done ++ [x]).
Proof.
  intros Hmem Hnd Hs. destruct (mem x seen) eqn:E.
  - split; [exact Hnd|]. apply Hmem in E. intros u. rewrite in_app_iff, <- Hs. cbn [In]. split; [tauto|].
    intros [H|[<-|[]]]; assumption.
  - split.
    + constructor; [|exact Hnd]. intros H. apply Hmem in H. congruence.
    + intros u. rewrite in_app_iff, <- Hs. cbn [In]. tauto.
Qed.

Lemma prod_eqb_eq {A B} (ea : A -> A -> bool) (eb : B -> B -> bool) :
  (forall x y, ea x y = true <-> x = y) -> (forall x y, eb x y = true <-> x = y) ->
  forall p q, ea (fst p) (fst q) && eb (snd p) (snd q) = true <-> p = q.
Proof.
  intros Ha Hb [a b] [a' b']. cbn [fst snd]. rewrite andb_true_iff, Ha, Hb.
  split; [intros [-> ->]; reflexivity|intros E; injection E; auto].
Qed.

Lemma NoDup_app_intro {A} (l1 l2 : list A) :
  NoDup l1 -> NoDup l2 -> (forall x, In x l1 -> ~ In x l2) -> NoDup (l1 ++ l2).
Proof.
  induction 1 as [|x l1 Hn Hnd IH]; intros H2 Hd; [exact H2|]. cbn [app]. constructor.
  - rewrite in_app_iff. intros [H|H]; [contradiction|]. apply (Hd x); [now left|exact H].
  - apply IH; [exact H2|]. intros y Hy. apply Hd. now right.
Qed.

Lemma NoDup_app_disjoint {A} (p q : list A) g : NoDup (p ++ q) -> In g p -> In g q -> False.
Proof.
  induction p as [|a p IH]; intros Hnd Hp Hq; [destruct Hp|].
  cbn [app] in Hnd. inversion Hnd as [|? ? Hnot Hnd']; subst. destruct Hp as [->|Hp].
  - apply Hnot. apply in_or_app. now right.
  - apply IH; assumption.
Qed.

Lemma NoDup_map_inj_on {A B} (f : A -> B) l :
  (forall x y, In x l -> In y l -> f x = f y -> x = y) -> NoDup l -> NoDup (map f l).
Proof.
  intros Hinj H. induction H as [|x l Hx Hl IH]; [constructor|]. cbn [map]. constructor.
  - intros Hin. apply in_map_iff in Hin. destruct Hin as [y [E Hy]].
    apply Hinj in E; [|right; exact Hy|left; reflexivity]. subst. contradiction.
  - apply IH. intros a b Ha Hb. apply Hinj; right; assumption.
Qed.

Lemma NoDup_same_set_length {A} (dec : forall a b : A, {a = b} + {a <> b}) s l :
  NoDup s -> (forall x, In x s <-> In x l) -> length s = length (nodup dec l).
Proof.
  intros Hnd Hs. apply Permutation_length, NoDup_Permutation; [exact Hnd|apply NoDup_nodup|].
  intros x. rewrite nodup_In. apply Hs.
Qed.

Lemma nodup_incl_length {A} (dec : forall a b : A, {a = b} + {a <> b}) l l' :
  incl l l' -> length (nodup dec l) <= length (nodup dec l').
Proof.
  intros H. apply NoDup_incl_length; [apply NoDup_nodup|].
  intros x Hx. apply nodup_In. apply H. apply (nodup_In dec). exact Hx.
Qed.

Lemma nodup_perm {A} (dec : forall a b : A, {a = b} + {a <> b}) l l' :
  Permutation l l' -> Permutation (nodup dec l) (nodup dec l').
Proof.
  intros Hp. apply NoDup_Permutation; try apply NoDup_nodup.
  intros x. rewrite !nodup_In. split; apply Permutation_in; [exact Hp|symmetry; exact Hp].
Qed.

Lemma NoDup_prod {A B} (la : list A) (lb : list B) : NoDup la -> NoDup lb -> NoDup (list_prod la lb).
Proof.
  intros Ha Hb. induction Ha as [|a la Hnin Ha IH]; [constructor|].
  cbn [list_prod]. apply NoDup_app_intro; [|exact IH|].
  - apply NoDup_map_inj_on; [|exact Hb]. intros y y' _ _ E. now injection E.
  - intros [x y] Hin Hin2. apply in_map_iff in Hin. destruct Hin as [y' [E _]]. injection E as <- _.
    apply in_prod_iff in Hin2. apply Hnin, Hin2.
Qed.

Section CountMap.
  Context {A B : Type} (decA : forall a b : A, {a = b} + {a <> b}) (decB : forall a b : B, {a = b} + {a <> b}).
  Variable h : A -> B.

  Lemma count_occ_map_le l x : count_occ decA l x <= count_occ decB (map h l) (h x).
  Proof.
    induction l as [|a l IH]; [reflexivity|]. cbn [map count_occ].
    destruct (decA a x) as [E|NE]; destruct (decB (h a) (h x)) as [E'|NE']; try lia.
    subst a. contradiction.
  Qed.

  (* equality as soon as no other element of the list is sent to [h x] *)
  Lemma count_occ_map_inj_on l x :
    (forall a, In a l -> h a = h x -> a = x) -> count_occ decB (map h l) (h x) = count_occ decA l x.
  Proof.
    induction l as [|a l IH]; intros Hinj; [reflexivity|]. cbn [map count_occ].
    rewrite IH by (intros b Hb; apply Hinj; now right).
    destruct (decB (h a) (h x)) as [E|NE]; destruct (decA a x) as [E'|NE']; try reflexivity.
    - elim NE'. apply Hinj; [now left|exact E].
    - subst a. contradiction.
  Qed.
End CountMap.

Lemma map_nth_seq {A} (l : list A) d : map (fun i => nth i l d) (seq 0 (length l)) = l.
Proof.
  induction l as [|a r IH]; [reflexivity|]. cbn [length seq map nth]. f_equal.
  rewrite <- seq_shift, map_map. exact IH.
Qed.

Lemma nth_map_lt {A B} (f : A -> B) l i d d' : i < length l -> nth i (map f l) d' = f (nth i l d).
Proof. intros Hi. rewrite (nth_indep _ d' (f d)) by (rewrite map_length; exact Hi). apply map_nth. Qed.

Lemma map_fst_combine {A B} (X : list A) (Y : list B) : length X = length Y -> map fst (combine X Y) = X.
Proof.
  revert Y. induction X as [|x X IH]; intros [|y Y] Hl; try discriminate; [reflexivity|].
  cbn [combine map fst]. f_equal. apply IH. now injection Hl.
Qed.

Lemma map_snd_combine {A B} (X : list A) (Y : list B) : length X = length Y -> map snd (combine X Y) = Y.
Proof.
  revert Y. induction X as [|x X IH]; intros [|y Y] Hl; try discriminate; [reflexivity|].
  cbn [combine map snd]. f_equal. apply IH. now injection Hl.
Qed.

Lemma in_map_snd {A B} (l : list (A * B)) v : In v (map snd l) <-> exists k, In (k, v) l.
Proof.
  rewrite in_map_iff. split.
  - intros [[k w] [E H]]. cbn [snd] in E. subst w. exists k. exact H.
  - intros [k H]. exists (k, v). split; [reflexivity|exact H].
Qed.

Lemma app_eq_len {A} (a b c d : list A) : length a = length b -> a ++ c = b ++ d -> a = b /\ c = d.
Proof.
  revert b. induction a as [|x a IH]; intros [|y b] Hl H; cbn in *; try discriminate; auto.
  injection H as -> H. destruct (IH b) as [-> ->]; auto.
Qed.

(* a list ending in [b], cut somewhere: the cut is at the end, or [b] ends the part after it *)
Lemma snoc_eq_split {A} (l : list A) b p f s : l ++ [b] = p ++ f :: s ->
  (s = [] /\ p = l /\ f = b) \/ exists s1, s = s1 ++ [b] /\ l = p ++ f :: s1.
Proof.
  intros E. induction s as [|y s0 _] using rev_ind.
  - left. apply app_inj_tail in E. destruct E as [-> ->]. auto.
  - right. exists s0. rewrite app_comm_cons, app_assoc in E. apply app_inj_tail in E. destruct E as [-> ->]. auto.
Qed.

Lemma nth_error_ext {A} (l : list A) : forall l', (forall j, nth_error l j = nth_error l' j) -> l = l'.
Proof.
  induction l as [|x l IH]; intros [|y l'] H.
  - reflexivity.
  - specialize (H 0). discriminate.
  - specialize (H 0). discriminate.
  - pose proof (H 0) as H0. cbn in H0. injection H0 as ->. f_equal. apply IH. intros j. exact (H (S j)).
Qed.

Lemma nth_error_Some_lt {A} (l : list A) k x : nth_error l k = Some x -> k < length l.
Proof. intros H. apply nth_error_Some. congruence. Qed.

Lemma nth_error_split_firstn {A} (l : list A) k f : nth_error l k = Some f ->
  exists s, l = firstn k l ++ f :: s.
Proof.
  intros H. destruct (nth_error_split l k H) as [l1 [l2 [Heq Hlen]]].
  exists l2. rewrite Heq at 2. rewrite firstn_app, Hlen, Nat.sub_diag. cbn [firstn].
  rewrite app_nil_r. rewrite <- Hlen, firstn_all. exact Heq.
Qed.

Lemma map_const_repeat {A B} (f : A -> B) d l : (forall x, In x l -> f x = d) -> map f l = repeat d (length l).
Proof.
  induction l as [|x r IH]; cbn [map length repeat]; intros H; [reflexivity|].
  rewrite H by now left. f_equal. apply IH. intros y Hy. apply H. now right.
Qed.

Lemma nth_repeat_lt {A} (x d : A) m i : i < m -> nth i (repeat x m) d = x.
Proof. revert i. induction m as [|m IH]; intros [|i] H; cbn [repeat nth]; try lia; [reflexivity|apply IH; lia]. Qed.

Lemma Forall_repeat {A} (P : A -> Prop) x m : P x -> Forall P (repeat x m).
Proof. intros H. induction m; cbn [repeat]; constructor; assumption. Qed.

Lemma flat_map_singleton {A} (l : list A) : flat_map (fun v => [v]) l = l.
Proof. induction l as [|a l IH]; cbn [flat_map app]; congruence. Qed.

Lemma flat_map_ext_in {A B} (f g : A -> list B) l : (forall x, In x l -> f x = g x) -> flat_map f l = flat_map g l.
Proof. intros H. rewrite !flat_map_concat_map. f_equal. apply map_ext_in, H. Qed.

Lemma combine_map_map {A B C} (f : C -> A) (g : C -> B) l : combine (map f l) (map g l) = map (fun c => (f c, g c)) l.
Proof. induction l as [|c l IH]; [reflexivity|]. cbn [map combine]. now rewrite IH. Qed.

Lemma combine_map_r {A B} (g : A -> B) l : combine l (map g l) = map (fun a => (a, g a)) l.
Proof. rewrite <- (map_id l) at 1. apply combine_map_map. Qed.

Lemma combine_diag {A} (l : list A) : combine l l = map (fun a => (a, a)) l.
Proof. rewrite <- (combine_map_r (fun a => a)), map_id. reflexivity. Qed.

Lemma combine_map_both {A B C D} (g : A -> C) (f : B -> D) X Y :
  combine (map g X) (map f Y) = map (fun p => (g (fst p), f (snd p))) (combine X Y).
Proof.
  revert Y. induction X as [|x X IH]; intros [|y Y]; try reflexivity.
  cbn [map combine fst snd]. f_equal. apply IH.
Qed.

Lemma combine_swap {A B} (X : list A) (Y : list B) : combine Y X = map (fun p => (snd p, fst p)) (combine X Y).
Proof. revert Y. induction X as [|x X IH]; intros [|y Y]; try reflexivity. cbn [map combine fst snd]. f_equal. apply IH. Qed.

Lemma combine_length_eq {A B} (X : list A) (Y : list B) : length X = length Y -> length (combine X Y) = length X.
Proof. intros Hl. rewrite combine_length, <- Hl. apply Nat.min_id. Qed.

Lemma firstn_exact {A} (l1 l2 : list A) : firstn (length l1) (l1 ++ l2) = l1.
Proof. induction l1 as [|a t IH]; cbn; [destruct l2; reflexivity | rewrite IH; reflexivity]. Qed.

Lemma In_firstn_In {A} (x : A) n l : In x (firstn n l) -> In x l.
Proof. intros H. rewrite <- (firstn_skipn n l). apply in_or_app. left. exact H. Qed.

(* [m] written over the cells a, ..., a + n - 1 of [l] *)
Lemma splice_length {A} (l m : list A) a n : n = length m -> a + n <= length l ->
  length (firstn a l ++ m ++ skipn (a + n) l) = length l.
Proof. intros -> H. rewrite !app_length, firstn_length, skipn_length. lia. Qed.

Lemma splice_prefix {A} (l m : list A) a n : n = length m -> a + n <= length l ->
  firstn (a + n) (firstn a l ++ m ++ skipn (a + n) l) = firstn a l ++ m.
Proof.
  intros -> H. rewrite app_assoc.
  replace (a + length m) with (length (firstn a l ++ m)) at 1 by (rewrite app_length, firstn_length; lia).
  apply firstn_exact.
Qed.

Lemma last_cons_default {A} (y : A) o : forall d, last (y :: o) d = last o y.
Proof.
  revert y. induction o as [|z o IH]; intros y d; [reflexivity|].
  change (last (y :: z :: o) d) with (last (z :: o) d). rewrite (IH z d), (IH z y). reflexivity.
Qed.

(* a left fold keeps an invariant that relates its state to the input consumed so far *)
Lemma fold_left_flat_inv {A B S} (I : list B -> S -> Prop) (f : S -> A -> S) (g : A -> list B) :
  (forall l t o, I l t -> I (l ++ g o) (f t o)) ->
  forall ops l t, I l t -> I (l ++ flat_map g ops) (fold_left f ops t).
Proof.
  intros Hstep. induction ops as [|o ops IH]; intros l t H; cbn [fold_left flat_map].
  - rewrite app_nil_r. exact H.
  - rewrite app_assoc. apply IH, Hstep, H.
Qed.

Lemma fold_left_snoc_inv {A S} (I : list A -> S -> Prop) (f : S -> A -> S) :
  (forall l t v, I l t -> I (l ++ [v]) (f t v)) ->
  forall vs l t, I l t -> I (l ++ vs) (fold_left f vs t).
Proof.
  intros Hstep vs l t H. rewrite <- (flat_map_singleton vs) at 1.
  apply (fold_left_flat_inv I f (fun v => [v])); assumption.
Qed.

Lemma fold_left_concat_inv {B S} (I : list B -> S -> Prop) (f : S -> list B -> S) :
  (forall l t o, I l t -> I (l ++ o) (f t o)) ->
  forall ops l t, I l t -> I (l ++ concat ops) (fold_left f ops t).
Proof.
  intros Hstep ops l t H. rewrite <- (map_id ops) at 1. rewrite <- flat_map_concat_map.
  apply (fold_left_flat_inv I f (fun o => o)); assumption.
Qed.

Lemma fold_left_concat {A B} (f : A -> B -> A) (ls : list (list B)) (a : A) :
  fold_left (fun acc l => fold_left f l acc) ls a = fold_left f (concat ls) a.
Proof.
  revert a. induction ls as [|l ls IH]; intro a; cbn [concat fold_left]; [reflexivity|].
  rewrite fold_left_app. apply IH.
Qed.

Lemma Forall2_nth {A B} (R : A -> B -> Prop) l m i da db :
  Forall2 R l m -> i < length l -> R (nth i l da) (nth i m db).
Proof.
  intros H. revert i. induction H as [|a b l m Hab _ IH]; cbn [length nth]; intros i Hi; [lia|].
  destruct i; [exact Hab|]. apply IH. lia.
Qed.

Lemma Forall2_len {A B} (R : A -> B -> Prop) l m : Forall2 R l m -> length l = length m.
Proof. induction 1; cbn [length]; auto. Qed.

Lemma StronglySorted_map {A B} (f : A -> B) (R : B -> B -> Prop) l :
  StronglySorted (fun x y => R (f x) (f y)) l -> StronglySorted R (map f l).
Proof.
  induction 1 as [|x l Hs IH Hf]; [constructor|]. cbn [map]. constructor; [exact IH|].
  apply Forall_map. exact Hf.
Qed.

Lemma StronglySorted_weaken {A} (R R' : A -> A -> Prop) l :
  (forall x y, R x y -> R' x y) -> StronglySorted R l -> StronglySorted R' l.
Proof.
  intros HR. induction 1 as [|x l Hs IH Hall]; constructor; [exact IH|].
  eapply Forall_impl; [|exact Hall]. intros y. apply HR.
Qed.

Lemma StronglySorted_NoDup {A} (R : A -> A -> Prop) l : (forall x, ~ R x x) -> StronglySorted R l -> NoDup l.
Proof.
  intros Hirr. induction 1 as [|x l _ IH Hall]; constructor; [|exact IH].
  intros Hin. rewrite Forall_forall in Hall. exact (Hirr x (Hall x Hin)).
Qed.
