(* Finite sums of reals indexed by a list, and the regrouping of a sum over a list by the value of its elements
   (sum_by_value): sum_{p in P} F p = sum_{u in U} #(u in P) F u for any duplicate-free U covering P. *)
From Coq Require Import Reals List Lra Lia Arith.
Import ListNotations.
Open Scope R_scope.

Definition rsum {A} (f : A -> R) (l : list A) : R := fold_right (fun a s => f a + s) 0 l.

Lemma rsum_nil {A} (f : A -> R) : rsum f [] = 0. Proof. reflexivity. Qed.
Lemma rsum_cons {A} (f : A -> R) a l : rsum f (a :: l) = f a + rsum f l. Proof. reflexivity. Qed.

Lemma rsum_ext_in {A} (f g : A -> R) l : (forall a, In a l -> f a = g a) -> rsum f l = rsum g l.
Proof.
  induction l as [|a l IH]; intros H; [reflexivity|].
  rewrite !rsum_cons, (H a (or_introl eq_refl)), IH; [reflexivity|].
  intros b Hb; apply H; now right.
Qed.

Lemma rsum_zero {A} (f : A -> R) l : (forall a, In a l -> f a = 0) -> rsum f l = 0.
Proof.
  induction l as [|a l IH]; intros H; [reflexivity|].
  rewrite rsum_cons, (H a (or_introl eq_refl)), IH; [lra|]. intros b Hb; apply H; now right.
Qed.

Lemma rsum_plus {A} (f g : A -> R) l : rsum (fun a => f a + g a) l = rsum f l + rsum g l.
Proof. induction l as [|a l IH]; [rewrite !rsum_nil; lra|]. rewrite !rsum_cons, IH; lra. Qed.

Lemma rsum_minus {A} (f g : A -> R) l : rsum (fun a => f a - g a) l = rsum f l - rsum g l.
Proof. induction l as [|a l IH]; [rewrite !rsum_nil; lra|]. rewrite !rsum_cons, IH; lra. Qed.

Lemma rsum_scal {A} (k : R) (f : A -> R) l : rsum (fun a => k * f a) l = k * rsum f l.
Proof. induction l as [|a l IH]; [rewrite !rsum_nil; lra|]. rewrite !rsum_cons, IH; lra. Qed.

Lemma rsum_le {A} (f g : A -> R) l : (forall a, In a l -> f a <= g a) -> rsum f l <= rsum g l.
Proof.
  induction l as [|a l IH]; intros H; [rewrite !rsum_nil; lra|].
  rewrite !rsum_cons. pose proof (H a (or_introl eq_refl)).
  assert (rsum f l <= rsum g l) by (apply IH; intros b Hb; apply H; now right). lra.
Qed.

Lemma rsum_const {A} (k : R) (l : list A) : rsum (fun _ => k) l = INR (length l) * k.
Proof. induction l as [|a l IH]; [rewrite rsum_nil; cbn [length INR]; lra|]. rewrite rsum_cons, IH. cbn [length]. rewrite S_INR. lra. Qed.

Lemma rsum_nonneg {A} (f : A -> R) l : (forall a, In a l -> 0 <= f a) -> 0 <= rsum f l.
Proof. intros H. rewrite <- (rsum_zero (fun _ : A => 0) l) by reflexivity. apply rsum_le. exact H. Qed.

Lemma rsum_opp {A} (f : A -> R) l : rsum (fun a => - f a) l = - rsum f l.
Proof. rewrite <- (rsum_ext_in (fun a => -1 * f a)) by (intros; lra). rewrite rsum_scal. lra. Qed.

Lemma rsum_swap {A B} (f : A -> B -> R) la lb :
  rsum (fun a => rsum (fun b => f a b) lb) la = rsum (fun b => rsum (fun a => f a b) la) lb.
Proof.
  induction la as [|a la IH].
  - rewrite rsum_nil. symmetry. apply rsum_zero. intros b _. apply rsum_nil.
  - rewrite rsum_cons, IH. rewrite <- rsum_plus. apply rsum_ext_in. intros b _. reflexivity.
Qed.

Lemma rsum_app {A} (f : A -> R) l1 l2 : rsum f (l1 ++ l2) = rsum f l1 + rsum f l2.
Proof. induction l1 as [|a l IH]; [cbn [app]; rewrite rsum_nil; lra|]. cbn [app]. rewrite !rsum_cons, IH; lra. Qed.

Lemma rsum_map {A B} (g : A -> B) (f : B -> R) l : rsum f (map g l) = rsum (fun a => f (g a)) l.
Proof. induction l as [|a l IH]; [reflexivity|]. cbn [map]. rewrite !rsum_cons, IH. reflexivity. Qed.

Lemma rsum_list_prod {A B} (f : A -> B -> R) la lb :
  rsum (fun a => rsum (fun b => f a b) lb) la = rsum (fun ab => f (fst ab) (snd ab)) (list_prod la lb).
Proof.
  induction la as [|a la IH]; [reflexivity|].
  rewrite rsum_cons. simpl list_prod. rewrite rsum_app, IH, rsum_map. reflexivity.
Qed.

Lemma rsum_prod_sep {A B} (f : A -> R) (g : B -> R) la lb :
  rsum (fun a => rsum (fun b => f a * g b) lb) la = rsum f la * rsum g lb.
Proof.
  rewrite (rsum_ext_in _ (fun a => rsum g lb * f a)) by (intros a _; rewrite rsum_scal; lra).
  rewrite rsum_scal. lra.
Qed.

Section ByValue.
  Context {A : Type} (dec : forall a b : A, {a = b} + {a <> b}).

  Lemma rsum_indicator (F : A -> R) (p : A) (U : list A) :
    NoDup U -> In p U -> rsum (fun u => if dec p u then F u else 0) U = F p.
  Proof.
    induction U as [|u U IH]; intros Hnd Hin; [contradiction|].
    inversion Hnd as [|? ? Hnotin Hnd']; subst. rewrite rsum_cons.
    destruct (dec p u) as [->|Hne].
    - rewrite rsum_zero; [lra|]. intros b Hb. destruct (dec u b) as [->|]; [contradiction|reflexivity].
    - destruct Hin as [->|Hin]; [congruence|]. rewrite IH by assumption. lra.
  Qed.

  Lemma sum_by_value (F : A -> R) (P U : list A) :
    NoDup U -> incl P U ->
    rsum (fun u => INR (count_occ dec P u) * F u) U = rsum F P.
  Proof.
    intros Hnd. induction P as [|p P IH]; intros Hincl.
    - rewrite rsum_nil. apply rsum_zero. intros u _. cbn [count_occ INR]. lra.
    - rewrite rsum_cons, <- IH by (intros x Hx; apply Hincl; now right).
      rewrite <- (rsum_indicator F p U Hnd) by (apply Hincl; now left).
      rewrite <- rsum_plus. apply rsum_ext_in. intros u _.
      cbn [count_occ]. destruct (dec p u) as [->|Hne].
      + destruct (dec u u); [|congruence]. rewrite S_INR. lra.
      + destruct (dec p u); [congruence|]. lra.
  Qed.

  Lemma sum_nodup (F : A -> R) (P : list A) : rsum (fun u => INR (count_occ dec P u) * F u) (nodup dec P) = rsum F P.
  Proof. apply sum_by_value; [apply NoDup_nodup|]. intros x Hx. apply nodup_In. exact Hx. Qed.

  Lemma sum_counts (P U : list A) : NoDup U -> incl P U -> rsum (fun u => INR (count_occ dec P u)) U = INR (length P).
  Proof.
    intros Hnd Hi. rewrite <- (rsum_ext_in (fun u => INR (count_occ dec P u) * 1)) by (intros; lra).
    rewrite (sum_by_value (fun _ => 1) P U Hnd Hi), rsum_const. lra.
  Qed.
End ByValue.
