(* Stable insertion sort over a boolean order, with the facts the sorted layers of the development use.
   The models define their own sorts with this same recursion; Median.sort, Aggregate.isort, Combos.sort_str,
   QMedian.qsort, Summary.sort_desc, Derived.sort and DataGen.sort_ix are convertible to [isort] at their order, so
   their lemmas are instances of these; Sampler.sort_by takes its key function inside the fixpoint and is equal to
   [isort] by a short induction (SamplerProofs.sort_by_isort); Construct.sort_str inserts by a strict test with the
   branches swapped and keeps its own two lemmas. *)
From Coq Require Import List Permutation Sorting.Sorted.
Import ListNotations.

Section ISort.
  Context {A : Type} (leb : A -> A -> bool).
  Notation le := (fun x y => leb x y = true).

  Fixpoint ins (x : A) (l : list A) : list A :=
    match l with [] => [x] | y :: r => if leb x y then x :: l else y :: ins x r end.
  Definition isort (l : list A) : list A := fold_right ins [] l.

  Lemma ins_perm x l : Permutation (ins x l) (x :: l).
  Proof.
    induction l as [|y r IH]; [reflexivity|]. cbn [ins]. destruct (leb x y); [reflexivity|].
    rewrite IH. apply perm_swap.
  Qed.

  Lemma isort_perm l : Permutation (isort l) l.
  Proof.
    induction l as [|x r IH]; [reflexivity|]. cbn [isort fold_right]. fold (isort r).
    rewrite ins_perm, IH. reflexivity.
  Qed.

  Lemma isort_In x l : In x (isort l) <-> In x l.
  Proof. split; apply Permutation_in; [|symmetry]; apply isort_perm. Qed.

  Lemma isort_length l : length (isort l) = length l.
  Proof. apply Permutation_length, isort_perm. Qed.

  Hypothesis total : forall x y, leb x y = true \/ leb y x = true.
  Hypothesis trans : forall x y z, leb x y = true -> leb y z = true -> leb x z = true.

  Lemma ins_sorted x l : StronglySorted le l -> StronglySorted le (ins x l).
  Proof.
    induction l as [|y r IH]; intros H; [repeat constructor|]. cbn [ins].
    pose proof (StronglySorted_inv H) as [Hr Hall]. destruct (leb x y) eqn:E.
    - constructor; [exact H|]. constructor; [exact E|].
      eapply Forall_impl; [|exact Hall]. intros z Hz. eapply trans; eassumption.
    - constructor; [apply IH; exact Hr|].
      eapply Permutation_Forall; [symmetry; apply ins_perm|]. constructor; [|exact Hall].
      destruct (total x y) as [Hxy|Hyx]; [congruence|exact Hyx].
  Qed.

  Lemma isort_sorted l : StronglySorted le (isort l).
  Proof. induction l as [|x r IH]; [constructor|]. cbn [isort fold_right]. apply ins_sorted. exact IH. Qed.

  (* Antisymmetry is only needed on the elements at hand: Qle_bool is antisymmetric on reduced fractions only. *)
  Lemma sorted_perm_eq l : forall l',
    (forall x y, In x l -> In y l -> leb x y = true -> leb y x = true -> x = y) ->
    StronglySorted le l -> StronglySorted le l' -> Permutation l l' -> l = l'.
  Proof.
    induction l as [|x r IH]; intros l' Hanti H H' Hp.
    - apply Permutation_nil in Hp. auto.
    - destruct l' as [|y r']; [apply Permutation_sym, Permutation_nil in Hp; discriminate|].
      pose proof (StronglySorted_inv H) as [Hr Hall]. pose proof (StronglySorted_inv H') as [Hr' Hall'].
      assert (x = y).
      { assert (Hx : In x (y :: r')) by (eapply Permutation_in; [exact Hp|now left]).
        assert (Hy : In y (x :: r)) by (eapply Permutation_in; [symmetry; exact Hp|now left]).
        rewrite Forall_forall in Hall, Hall'.
        destruct Hx as [->|Hx]; [reflexivity|]. destruct Hy as [->|Hy]; [reflexivity|].
        apply Hanti; [now left|now right|apply Hall; exact Hy|apply Hall'; exact Hx]. }
      subst y. f_equal. apply IH; try assumption.
      + intros a b Ha Hb. apply Hanti; now right.
      + eapply Permutation_cons_inv. exact Hp.
  Qed.

  Lemma isort_perm_invariant l l' :
    (forall x y, In x l -> In y l -> leb x y = true -> leb y x = true -> x = y) ->
    Permutation l l' -> isort l = isort l'.
  Proof.
    intros Hanti Hp. apply sorted_perm_eq; try apply isort_sorted.
    - intros x y Hx Hy. apply Hanti; apply isort_In; assumption.
    - rewrite !isort_perm. exact Hp.
  Qed.
End ISort.
