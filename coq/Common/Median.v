(* The median of integer scores, doubled to stay in Z: [sort] is Common/Sort.v's insertion sort at Z.leb, [median2] reads
   the two middle positions of the sorted list; what a sorted list of integers says about counts below and above a position. *)
From Coq Require Import List ZArith Lia Permutation Sorting.Sorted.
From Outrank Require Import Common.ListFacts Common.Sort.
Import ListNotations.
Open Scope Z_scope.

Fixpoint insert (x : Z) (l : list Z) : list Z :=
  match l with [] => [x] | y :: r => if x <=? y then x :: l else y :: insert x r end.
Definition sort (l : list Z) : list Z := fold_right insert [] l.

(* [sort] is the insertion sort of Common/Sort.v at Z.leb (convertible); its facts are that sort's facts, with the
   boolean order read as Z.le *)
Lemma Zleb_total x y : (x <=? y) = true \/ (y <=? x) = true.
Proof. rewrite !Z.leb_le. lia. Qed.

Lemma sort_perm l : Permutation (sort l) l.
Proof. exact (isort_perm Z.leb l). Qed.

Lemma sort_sorted l : StronglySorted Z.le (sort l).
Proof.
  eapply StronglySorted_weaken; [|exact (isort_sorted Z.leb Zleb_total Zle_bool_trans l)].
  intros x y. apply Z.leb_le.
Qed.

Lemma Zsorted_perm_eq l l' : StronglySorted Z.le l -> StronglySorted Z.le l' -> Permutation l l' -> l = l'.
Proof.
  intros H H' Hp. apply (Sort.sorted_perm_eq Z.leb l l'); [| | |exact Hp].
  - intros x y _ _ Hxy Hyx. apply Z.le_antisymm; apply Z.leb_le; assumption.
  - eapply StronglySorted_weaken; [|exact H]. intros x y. apply Z.leb_le.
  - eapply StronglySorted_weaken; [|exact H']. intros x y. apply Z.leb_le.
Qed.

Theorem sort_perm_invariant l l' : Permutation l l' -> sort l = sort l'.
Proof.
  intros Hp. apply Zsorted_perm_eq; try apply sort_sorted.
  rewrite !sort_perm. exact Hp.
Qed.

(* twice the median, to stay in Z: 2*middle for odd length, sum of the two middles for even length *)
Definition median2 (l : list Z) : Z :=
  let s := sort l in let n := length s in
  if Nat.even n then nth (n / 2 - 1) s 0 + nth (n / 2) s 0 else 2 * nth (n / 2) s 0.

(* Without the parity split: the two middle positions of n sorted scores are (n-1)/2 and n/2, equal when n is odd. *)
Lemma mid_positions n : (0 < n)%nat ->
  if Nat.even n then ((n - 1) / 2 = n / 2 - 1)%nat else ((n - 1) / 2 = n / 2)%nat.
Proof.
  intros Hn. destruct (Nat.even n) eqn:E.
  - apply Nat.even_spec in E. destruct E as [h ->].
    replace (2 * h - 1)%nat with (1 + (h - 1) * 2)%nat by lia.
    rewrite Nat.div_add, (Nat.mul_comm 2 h), Nat.div_mul by lia. reflexivity.
  - assert (O : Nat.odd n = true) by (rewrite <- Nat.negb_even, E; reflexivity).
    apply Nat.odd_spec in O. destruct O as [h ->].
    replace (2 * h + 1 - 1)%nat with (h * 2)%nat by lia. replace (2 * h + 1)%nat with (1 + h * 2)%nat by lia.
    rewrite Nat.div_add, Nat.div_mul by lia. reflexivity.
Qed.

Lemma median2_alt l : l <> [] ->
  median2 l = nth ((length l - 1) / 2) (sort l) 0 + nth (length l / 2) (sort l) 0.
Proof.
  intros Hne. unfold median2. cbv zeta. rewrite (Permutation_length (sort_perm l)).
  assert (Hn : (0 < length l)%nat) by (destruct l; [congruence|cbn [length]; lia]).
  pose proof (mid_positions (length l) Hn) as M. destruct (Nat.even (length l)); rewrite M; [reflexivity|lia].
Qed.

Theorem median2_perm l l' : Permutation l l' -> median2 l = median2 l'.
Proof. intros Hp. unfold median2. rewrite (sort_perm_invariant l l' Hp). reflexivity. Qed.
Print Assumptions median2_perm.
Eval vm_compute in (median2 [5; 1; 9], median2 [5; 1; 9; 2], median2 [7]).

Theorem median2_sorted l s : Permutation s l -> StronglySorted Z.le s ->
  median2 l = let n := length s in
              if Nat.even n then (nth (n / 2 - 1) s 0 + nth (n / 2) s 0)%Z else (2 * nth (n / 2) s 0)%Z.
Proof.
  intros Hp Hs. assert (E : sort l = s).
  { apply Zsorted_perm_eq; [apply sort_sorted|exact Hs|]. rewrite sort_perm. symmetry. exact Hp. }
  unfold median2. rewrite E. reflexivity.
Qed.

Lemma sorted_split (s : list Z) i : (i < length s)%nat -> StronglySorted Z.le s ->
  s = firstn i s ++ nth i s 0 :: skipn (S i) s /\
  Forall (fun x => x <= nth i s 0) (firstn i s) /\ Forall (fun x => nth i s 0 <= x) (skipn (S i) s).
Proof.
  revert i. induction s as [|y s IH]; intros i Hi Hs; cbn [length] in Hi; [lia|].
  apply StronglySorted_inv in Hs. destruct Hs as [Hs Hall]. destruct i as [|i].
  - cbn [firstn skipn nth app]. repeat split; [constructor|exact Hall].
  - destruct (IH i ltac:(lia) Hs) as (E & Ha & Hb). cbn [firstn skipn nth app]. repeat split.
    + f_equal. exact E.
    + constructor; [|exact Ha]. rewrite Forall_forall in Hall. apply Hall, nth_In. lia.
    + exact Hb.
Qed.

(* a predicate that fails from s[i] on holds for at most i elements; one that fails up to s[i] for at most n - i - 1 *)
Lemma count_low (s : list Z) (P : Z -> bool) i : (i < length s)%nat -> StronglySorted Z.le s ->
  (forall x, nth i s 0 <= x -> P x = false) -> (length (filter P s) <= i)%nat.
Proof.
  intros Hi Hs HP. destruct (sorted_split s i Hi Hs) as (E & _ & Hb). rewrite E at 1.
  rewrite filter_app. cbn [filter]. rewrite HP by lia. rewrite (filter_none P (skipn (S i) s)), app_nil_r.
  - etransitivity; [apply filter_length_le|]. rewrite firstn_length. lia.
  - rewrite Forall_forall in Hb. intros x Hx. apply HP, Hb, Hx.
Qed.
Lemma count_high (s : list Z) (P : Z -> bool) i : (i < length s)%nat -> StronglySorted Z.le s ->
  (forall x, x <= nth i s 0 -> P x = false) -> (length (filter P s) + S i <= length s)%nat.
Proof.
  intros Hi Hs HP. destruct (sorted_split s i Hi Hs) as (E & Ha & _).
  assert (L : length s = (i + S (length (skipn (S i) s)))%nat).
  { rewrite E at 1. rewrite app_length, firstn_length. cbn [length]. lia. }
  rewrite E at 1. rewrite filter_app. cbn [filter]. rewrite HP by lia. rewrite (filter_none P (firstn i s)).
  - cbn [app]. pose proof (filter_length_le P (skipn (S i) s)). lia.
  - rewrite Forall_forall in Ha. intros x Hx. apply HP, Ha, Hx.
Qed.

Lemma sorted_adjacent (s : list Z) i : (S i < length s)%nat -> StronglySorted Z.le s -> nth i s 0 <= nth (S i) s 0.
Proof.
  intros Hi Hs. destruct (sorted_split s (S i) Hi Hs) as (_ & Ha & _). rewrite Forall_forall in Ha. apply Ha.
  replace (nth i s 0) with (nth i (firstn (S i) s) 0).
  - apply nth_In. rewrite firstn_length. lia.
  - rewrite <- (firstn_skipn (S i) s) at 2. rewrite app_nth1; [reflexivity|]. rewrite firstn_length. lia.
Qed.
