(* Python's s.split(sep) for a one-character separator and sep.join(pieces), on strings as lists of code points.
   The models' transcriptions IO.Str.split_on, Pipeline.Combos.split_on, Features.Transform.split_on and
   Features.Construct.split_on are this [split_on], and Features.Construct.join1, Features.TransformProofs.join and
   Stats.QualityProofs.join are this [join_sep], by conversion; Stats.Quality.split_on and IO.Str.join_with [sep]
   recurse differently and are related to them by an induction where they are used. *)
From Coq Require Import List NArith Bool.
Import ListNotations.

Fixpoint split_on (sep : N) (l : list N) : list (list N) :=
  match l with
  | [] => [[]]
  | c :: r => if N.eqb c sep then [] :: split_on sep r
              else match split_on sep r with
                   | [] => [[c]]
                   | h :: t => (c :: h) :: t
                   end
  end.

Fixpoint join_sep (sep : N) (ls : list (list N)) : list N :=
  match ls with
  | [] => []
  | x :: r => match r with [] => x | _ => x ++ sep :: join_sep sep r end
  end.

Lemma join_sep_cons sep x y r : join_sep sep (x :: y :: r) = x ++ sep :: join_sep sep (y :: r).
Proof. reflexivity. Qed.

(* "".split(sep) is [""]: there is always a piece *)
Lemma split_on_nonnil sep l : split_on sep l <> [].
Proof.
  destruct l as [|c r]; cbn [split_on]; [discriminate|].
  destruct (N.eqb c sep); [discriminate|]. destruct (split_on sep r); discriminate.
Qed.

(* split after join: pieces without the separator come back *)

Lemma split_on_word sep w : ~ In sep w -> split_on sep w = [w].
Proof.
  induction w as [|c w IH]; intros H; cbn [split_on]; [reflexivity|].
  destruct (N.eqb_spec c sep) as [->|Hne]; [exfalso; apply H; left; reflexivity|].
  rewrite IH; [reflexivity|]. intros Hin. apply H. right. exact Hin.
Qed.

Lemma split_on_app sep w r : ~ In sep w -> split_on sep (w ++ sep :: r) = w :: split_on sep r.
Proof.
  induction w as [|c w IH]; intros H; cbn [split_on app].
  - rewrite N.eqb_refl. reflexivity.
  - destruct (N.eqb_spec c sep) as [->|Hne]; [exfalso; apply H; left; reflexivity|].
    rewrite IH; [reflexivity|]. intros Hin. apply H. right. exact Hin.
Qed.

Theorem split_join sep ls : ls <> [] -> (forall w, In w ls -> ~ In sep w) -> split_on sep (join_sep sep ls) = ls.
Proof.
  induction ls as [|w ls IH]; intros Hne H; [congruence|]. destruct ls as [|w' ls].
  - apply split_on_word. apply H. left. reflexivity.
  - rewrite join_sep_cons, split_on_app by (apply H; left; reflexivity).
    rewrite IH; [reflexivity|discriminate|]. intros v Hv. apply H. right. exact Hv.
Qed.

(* join after split: the string comes back, and no piece holds the separator *)

Theorem join_split sep l : join_sep sep (split_on sep l) = l.
Proof.
  induction l as [|c r IH]; [reflexivity|]. cbn [split_on].
  pose proof (split_on_nonnil sep r) as Hn. destruct (split_on sep r) as [|p ps]; [contradiction|].
  destruct (N.eqb_spec c sep) as [->|Hne].
  - rewrite join_sep_cons, IH. reflexivity.
  - destruct ps as [|q qs]; [cbn [join_sep] in *; congruence|].
    rewrite join_sep_cons in *. cbn [app]. congruence.
Qed.

Theorem split_on_nodelim sep l : forall p, In p (split_on sep l) -> ~ In sep p.
Proof.
  induction l as [|c r IH]; cbn [split_on]; intros p H.
  - destruct H as [<-|[]]. intros [].
  - destruct (N.eqb_spec c sep) as [->|Hne].
    + destruct H as [<-|H]; [intros []|apply IH, H].
    + destruct (split_on sep r) as [|q qs].
      * destruct H as [<-|[]]. intros [E|[]]. congruence.
      * destruct H as [<-|H]; [|apply IH; right; exact H].
        intros [E|E]; [congruence|]. apply (IH q); [left; reflexivity|exact E].
Qed.
