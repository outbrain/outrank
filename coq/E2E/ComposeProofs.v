(* E2E — the main lemmas about the composed model of E2E/Compose.v.  Every layer fact is imported from the layer's own
   proofs file (Pipeline/StreamProofs.v, AggregateProofs.v, CombosProofs.v); what is proved here and in CovProofs.v /
   MedianRep.v / RowsProofs.v is the glue. *)
From Coq Require Import List NArith ZArith QArith Bool Arith Lia Permutation Sorting.Sorted.
From Outrank Require Import Common.Median.
From Outrank Require Pipeline.Stream Pipeline.StreamProofs.
From Outrank Require Import Pipeline.Aggregate Pipeline.AggregateProofs.
From Outrank Require Pipeline.Combos Pipeline.CombosProofs.
From Outrank Require Import Common.ListFacts E2E.Compose E2E.CapCompose E2E.MedianRep E2E.RowsProofs.
Import ListNotations.
Local Open Scope nat_scope.

Notation str := (list N) (only parsing).

(* the streaming layer: which lines make up the batches *)

Lemma selected_number_from s fs : forall k,
  Stream.selected s k (Stream.number_from (N.succ k) fs)
  = filter (fun l : Stream.line => N.eqb (N.modulo (fst l) s) 0) (Stream.number_from (N.succ k) fs).
Proof.
  induction fs as [|f fs IH]; intros k; [reflexivity|].
  cbn [Stream.number_from Stream.selected filter fst]. rewrite IH. reflexivity.
Qed.

(* every s-th line (1-based) *)
Definition sel_lines (c : config) (ps : list (option (list str))) : list Stream.line :=
  filter (fun l : Stream.line => N.eqb (N.modulo (fst l) (g_s c)) 0) (abs_lines ps).
(* ... whose field count is the header's *)
Definition good_lines (c : config) (header : list str) (ps : list (option (list str))) : list Stream.line :=
  filter (Stream.wf (stream_cfg c header)) (sel_lines c ps).

Lemma selected_abs c ps : Stream.selected (g_s c) 0 (abs_lines ps) = sel_lines c ps.
Proof. unfold abs_lines, sel_lines. change 1%N with (N.succ 0). apply selected_number_from. Qed.

Lemma good_abs c header ps : Stream.good (stream_cfg c header) 0 (abs_lines ps) = good_lines c header ps.
Proof. unfold Stream.good, good_lines. cbn [Stream.cs stream_cfg]. rewrite selected_abs. reflexivity. Qed.

(* C08_batches, instantiated *)
Theorem e2e_batches_spec c header ps : (0 < g_B c)%N ->
  e2e_batches c header ps =
  let g := good_lines c header ps in let B := N.to_nat (g_B c) in
  fst (Stream.chunks B g) ++ (if Stream.tail_min <? length (snd (Stream.chunks B g)) then [snd (Stream.chunks B g)] else []).
Proof.
  intros HB. unfold e2e_batches. rewrite StreamProofs.batches_spec by (cbn [Stream.cB stream_cfg]; lia).
  unfold Stream.reference_batches. rewrite good_abs. reflexivity.
Qed.

Lemma in_number_from fs : forall k l, In l (Stream.number_from k fs) ->
  exists i, i < length fs /\ fst l = (k + N.of_nat i)%N /\ snd l = nth i fs 0.
Proof.
  induction fs as [|f fs IH]; intros k l H; [destruct H|]. cbn [Stream.number_from] in H. destruct H as [<-|H].
  - exists 0. cbn. split; [lia|]. split; [lia|reflexivity].
  - destruct (IH _ _ H) as [i [Hi [E1 E2]]]. exists (S i). cbn [length nth]. split; [lia|]. split; [lia|exact E2].
Qed.

(* a line of the abstract file is (1-based position, field count of the parsed line at that position) *)
Lemma in_abs_lines ps l : In l (abs_lines ps) ->
  (1 <= fst l)%N /\ N.to_nat (N.pred (fst l)) < length ps /\ snd l = nfields (nth (N.to_nat (N.pred (fst l))) ps None).
Proof.
  intros H. apply in_number_from in H. destruct H as [i [Hi [E1 E2]]]. rewrite map_length in Hi.
  assert (E : N.to_nat (N.pred (fst l)) = i) by lia. rewrite E. split; [lia|]. split; [exact Hi|].
  rewrite E2. change 0 with (nfields None). apply map_nth.
Qed.

Lemma in_batch_good c header ps b l : (0 < g_B c)%N ->
  In b (e2e_batches c header ps) -> In l b -> In l (good_lines c header ps).
Proof.
  intros HB Hb Hl. rewrite e2e_batches_spec in Hb by exact HB. cbv zeta in Hb.
  destruct (StreamProofs.chunks_spec (N.to_nat (g_B c)) (good_lines c header ps)) as (E & _ & _); [lia|].
  rewrite <- E. apply in_app_or in Hb. apply in_or_app. destruct Hb as [Hb|Hb].
  - left. apply in_concat. exists b. auto.
  - right. destruct (Stream.tail_min <? _); [|destruct Hb]. destruct Hb as [<-|[]]. exact Hl.
Qed.

Lemma batches_nonempty c header ps : (0 < g_B c)%N -> Forall (fun b => b <> []) (e2e_batches c header ps).
Proof.
  intros HB. rewrite e2e_batches_spec by exact HB. cbv zeta.
  destruct (StreamProofs.chunks_spec (N.to_nat (g_B c)) (good_lines c header ps)) as (_ & F & _); [lia|].
  apply Forall_app. split.
  - eapply Forall_impl; [|exact F]. intros b Hb E. rewrite E in Hb. cbn in Hb. lia.
  - destruct (Stream.tail_min <? length _) eqn:E; [|constructor]. constructor; [|constructor].
    apply Nat.ltb_lt in E. intros E'. rewrite E' in E. cbn in E. lia.
Qed.

Lemma abs_lines_length ps : length (abs_lines ps) = length ps.
Proof. unfold abs_lines. rewrite StreamProofs.number_from_length. apply map_length. Qed.

(* without sub-sampling, a file whose every line has the header's field count is taken whole *)
Lemma good_lines_all c header ps : g_s c = 1%N -> Forall (fun p => nfields p = length header) ps ->
  good_lines c header ps = abs_lines ps.
Proof.
  intros Hs Hf. unfold good_lines, sel_lines. rewrite Hs.
  rewrite (filter_all _ (abs_lines ps)) by (intros l _; rewrite N.mod_1_r; reflexivity).
  apply filter_all. intros l Hl. unfold Stream.wf. cbn [Stream.cncols stream_cfg]. apply Nat.eqb_eq.
  destruct (in_abs_lines ps l Hl) as (_ & Hi & ->).
  rewrite Forall_forall in Hf. apply Hf. apply nth_In. exact Hi.
Qed.

Lemma e2e_batches_short c header ps : g_s c = 1%N -> Forall (fun p => nfields p = length header) ps ->
  length ps < N.to_nat (g_B c) ->
  e2e_batches c header ps = if Stream.tail_min <? length ps then [abs_lines ps] else [].
Proof.
  intros Hs Hf Hlen. rewrite e2e_batches_spec by lia. cbv zeta.
  rewrite good_lines_all by assumption. rewrite StreamProofs.chunks_short by (rewrite abs_lines_length; exact Hlen).
  cbn [fst snd app]. rewrite abs_lines_length. reflexivity.
Qed.

Lemma crashes_parsed c rows : crashes c (map Some rows) = false.
Proof.
  unfold crashes. rewrite selected_abs. destruct (existsb _ _) eqn:E; [|reflexivity].
  apply existsb_exists in E. destruct E as [l [Hl E]]. apply filter_In in Hl.
  destruct (in_abs_lines _ _ (proj1 Hl)) as (_ & Hi & _).
  rewrite (nth_indep _ None (Some [])) in E by exact Hi. rewrite map_nth in E. discriminate.
Qed.

(* the row of a line that entered a batch: parsed without error, selected, with the header's field count *)
Theorem batch_line_spec c header ps b l : (0 < g_B c)%N -> crashes c ps = false ->
  In b (e2e_batches c header ps) -> In l b ->
  N.modulo (fst l) (g_s c) = 0%N /\ (1 <= fst l)%N /\
  exists fs, nth (N.to_nat (N.pred (fst l))) ps None = Some fs /\ length fs = length header /\ row_at ps (fst l) = fs.
Proof.
  intros HB Hcr Hb Hl. pose proof (in_batch_good c header ps b l HB Hb Hl) as Hg.
  unfold good_lines in Hg. apply filter_In in Hg. destruct Hg as [Hs Hwf].
  pose proof Hs as Hs'. unfold sel_lines in Hs. apply filter_In in Hs. destruct Hs as [Hin Hmod].
  apply N.eqb_eq in Hmod. destruct (in_abs_lines ps l Hin) as (H1 & H2 & H3).
  split; [exact Hmod|]. split; [exact H1|].
  unfold crashes in Hcr. rewrite selected_abs in Hcr.
  assert (Hn : is_none (nth (N.to_nat (N.pred (fst l))) ps None) = false).
  { destruct (is_none _) eqn:E; [|reflexivity]. rewrite <- Hcr. symmetry. apply existsb_exists. exists l. auto. }
  destruct (nth (N.to_nat (N.pred (fst l))) ps None) as [fs|] eqn:E; [|discriminate]. exists fs. split; [reflexivity|].
  unfold Stream.wf in Hwf. cbn [Stream.cncols stream_cfg] in Hwf. apply Nat.eqb_eq in Hwf. rewrite H3 in Hwf. cbn [nfields] in Hwf.
  split; [exact Hwf|]. unfold row_at. rewrite E. reflexivity.
Qed.

(* the batches do not depend on the scorer or the aggregation the loop is run with (C08_batches) *)
Lemma batches_any_scorer {A T} (sc : list Stream.line -> list A) (ag : list A -> T) c header ps : (0 < g_B c)%N ->
  Stream.batches sc ag (stream_cfg c header) (abs_lines ps) = e2e_batches c header ps.
Proof.
  intros HB. unfold e2e_batches. rewrite !StreamProofs.batches_spec by (cbn [Stream.cB stream_cfg]; lia). reflexivity.
Qed.

(* the composition equals running C08's loop with the composed scorer (the loop's accumulated rows) *)
Theorem all_rows_is_loop c header ps : (0 < g_B c)%N ->
  let D := common_den (e2e_batches c header ps) in
  all_rows c header ps =
  Stream.all_rows (fun b => map (to_agg header) (batch_triplets c header D (batch_rows ps b))) (fun _ => tt)
                  (stream_cfg c header) (abs_lines ps).
Proof.
  intros HB D. rewrite StreamProofs.all_rows_spec.
  rewrite <- flat_map_concat_map, batches_any_scorer by exact HB. reflexivity.
Qed.

Lemma common_den_spec (bs : list (list Stream.line)) : Forall (fun b => b <> []) bs ->
  common_den bs <> 0%N /\ forall b, In b bs -> (N.of_nat (length b) | common_den bs)%N.
Proof.
  unfold common_den. induction bs as [|b bs IH]; intros H.
  - split; [discriminate|intros b []].
  - inversion H as [|? ? Hb Hbs]; subst. destruct (IH Hbs) as [IH1 IH2]. cbn [map fold_right]. split.
    + intros E. apply N.lcm_eq_0 in E. destruct E as [E|E]; [|contradiction].
      destruct b; [congruence|cbn in E; lia].
    + intros b' [<-|Hin]; [apply N.divide_lcm_l|].
      eapply N.divide_trans; [apply IH2; exact Hin|apply N.divide_lcm_r].
Qed.

Lemma den_pos_spec D : D <> 0%N -> Zpos (den_pos D) = (2 * Z.of_N D)%Z.
Proof. intros H. unfold den_pos. destruct D as [|p]; [congruence|]. reflexivity. Qed.

Lemma nth_sidx header x : In x header -> nth (N.to_nat (Combos.sidx header x)) header [] = x.
Proof.
  induction header as [|h t IH]; intros H; [destruct H|]. cbn [Combos.sidx].
  destruct (Combos.str_eqb x h) eqn:E; [apply CombosProofs.str_eqb_eq in E; subst; reflexivity|].
  destruct H as [->|H]; [rewrite CombosProofs.str_eqb_refl in E; discriminate|].
  rewrite N2Nat.inj_succ. cbn [nth]. apply IH. exact H.
Qed.

Lemma emit_ixp header D xy z : In (fst xy) header -> In (snd xy) header ->
  emit header D ((Combos.ixp header xy : key), z) = (fst xy, snd xy, Qmake z (den_pos D)).
Proof. intros H1 H2. unfold emit, Combos.ixp. cbn [fst snd]. rewrite !nth_sidx by assumption. reflexivity. Qed.

(* the part of the fragment test that config_ok and cap_config_ok share; they differ in what they ask of the cap *)
Definition base_ok (c : config) (header : list str) : bool :=
  (0 <? g_B c)%N && (0 <? g_s c)%N && supported_heur (g_heur c) && Combos.nodup_strb header && Combos.memb (g_label c) header.

Lemma config_ok_base c header :
  config_ok c header = base_ok c header && (Z.of_nat (length (cands_of c header)) <=? g_cap c)%Z.
Proof. reflexivity. Qed.

Lemma cap_config_ok_base c header : cap_config_ok c header = base_ok c header && (1 <=? g_cap c)%Z.
Proof. reflexivity. Qed.

Lemma base_ok_spec c header : base_ok c header = true ->
  (0 < g_B c)%N /\ (0 < g_s c)%N /\ supported_heur (g_heur c) = true /\ NoDup header /\ In (g_label c) header.
Proof.
  unfold base_ok. rewrite !andb_true_iff. intros [[[[H1 H2] H3] H4] H5].
  apply N.ltb_lt in H1, H2. apply CombosProofs.memb_In in H5. apply nodup_strb_NoDup in H4. auto 10.
Qed.

Lemma config_ok_spec c header : config_ok c header = true ->
  (0 < g_B c)%N /\ (0 < g_s c)%N /\ supported_heur (g_heur c) = true /\ NoDup header /\ In (g_label c) header /\
  (Z.of_nat (length (cands_of c header)) <= g_cap c)%Z.
Proof.
  rewrite config_ok_base, andb_true_iff. intros [H H6]. apply Z.leb_le in H6.
  destruct (base_ok_spec c header H) as (H1 & H2 & H3 & H4 & H5). auto 10.
Qed.

Lemma supported_not_3mr h : supported_heur h = true -> Combos.is_3mr h = false.
Proof.
  unfold supported_heur. intros H. apply orb_true_iff in H. destruct H as [H|H].
  - apply CombosProofs.str_eqb_eq in H. subst. reflexivity.
  - unfold Combos.is_const in H. apply CombosProofs.str_eqb_eq in H. subst. reflexivity.
Qed.

Lemma h_maxcov_not_const : Combos.is_const h_maxcov = false.
Proof. reflexivity. Qed.

(* e2e_core, e2ecap_core and e2ecap_core_pairs have this shape: a fragment test, the csv.Error test, at least one batch *)
Lemma run_some (ok : bool) c header ps rows t :
  (if negb ok then None else if crashes c ps then None
   else match e2e_batches c header ps with
        | [] => None
        | _ => Some (map (emit header (common_den (e2e_batches c header ps))) (final_table rows))
        end) = Some t ->
  ok = true /\ crashes c ps = false /\ e2e_batches c header ps <> [] /\
  t = map (emit header (common_den (e2e_batches c header ps))) (final_table rows).
Proof.
  destruct ok; [|discriminate]. cbn [negb].
  destruct (crashes c ps); [discriminate|]. destruct (e2e_batches c header ps) eqn:E; [discriminate|].
  intros H. inversion H. repeat split. discriminate.
Qed.

Lemma e2e_core_some c header ps t : e2e_core c header ps = Some t ->
  config_ok c header = true /\ crashes c ps = false /\ e2e_batches c header ps <> [] /\
  t = map (emit header (common_den (e2e_batches c header ps))) (final_table (all_rows c header ps)).
Proof. apply run_some. Qed.

(* the requested pairs, by mode (C06_target_only / C06_pairwise) *)
Definition requested (c : config) (header : list str) (a b : str) : Prop :=
  In a header /\ In b header /\ (Combos.is_tonly (g_tro c) = true -> a = g_label c \/ b = g_label c).

Lemma requested_uin c header a b : supported_heur (g_heur c) = true ->
  (CombosProofs.uin (a, b) (cands_of c header) <-> requested c header a b).
Proof.
  intros Hs. pose proof (supported_not_3mr _ Hs) as H3. unfold requested, cands_of.
  destruct (Combos.is_tonly (g_tro c)) eqn:Ht.
  - rewrite (CombosProofs.cands_target_only header (g_heur c) (g_tro c) (g_label c) H3 Ht). tauto.
  - rewrite (CombosProofs.cands_pairwise header (g_heur c) (g_tro c) (g_label c) H3 Ht).
    split; [intros [? ?]; repeat split; auto; discriminate|tauto].
Qed.

(* the tables of the batches: the parsed rows of the lines of each batch *)
Definition batch_tables (c : config) (header : list str) (ps : list (option (list str))) : list (list (list str)) :=
  map (batch_rows ps) (e2e_batches c header ps).

Lemma batch_tables_spec c header ps : (0 < g_B c)%N -> e2e_batches c header ps <> [] ->
  let D := common_den (e2e_batches c header ps) in
  batch_tables c header ps <> [] /\ D <> 0%N /\
  Forall (fun rows => rows <> [] /\ (N.of_nat (length rows) | D)%N) (batch_tables c header ps).
Proof.
  intros HB Hne D. pose proof (batches_nonempty c header ps HB) as Hbn. destruct (common_den_spec _ Hbn) as [HD Hdiv].
  split; [|split; [exact HD|]].
  - unfold batch_tables. intros E. apply map_eq_nil in E. contradiction.
  - unfold batch_tables. apply Forall_map. rewrite Forall_forall in Hbn. apply Forall_forall. intros b Hin.
    unfold batch_rows. rewrite map_length. split; [|apply Hdiv; exact Hin].
    intros E. apply map_eq_nil in E. exact (Hbn b Hin E).
Qed.

Lemma cands_of_closed c header : In (g_label c) header -> closed header (cands_of c header).
Proof. intros Hl x y H. apply (CombosProofs.cands_closed header (g_heur c) (g_tro c) (g_label c) Hl x y H). Qed.

(* the table of a run in which batch [fst be] evaluates the pairs [snd be] *)

Lemma emit_table_sorted header D X :
  StronglySorted (fun r1 r2 : str * str * Q => Qle (snd r1) (snd r2)) (map (emit header D) (final_sort X)).
Proof.
  apply StronglySorted_map. eapply StronglySorted_weaken; [|apply final_sort_sorted].
  intros r1 r2 H. unfold emit. cbn [snd]. unfold Qle. cbn [Qnum Qden].
  apply Z.mul_le_mono_nonneg_r; [lia|exact H].
Qed.

Lemma in_emit_table header D rows a b q :
  In (a, b, q) (map (emit header D) (final_table rows)) <-> exists r, In r (aggregate rows) /\ emit header D r = (a, b, q).
Proof.
  unfold final_table. rewrite in_map_iff. split; intros [r [H1 H2]].
  - exists r. split; [|exact H1]. apply in_final_sort, H2.
  - exists r. split; [exact H2|]. apply in_final_sort, H1.
Qed.

Lemma emit_table_nodup header D rows :
  (forall k, In k (map fst rows) -> exists xy, k = Combos.ixp header xy /\ In (fst xy) header /\ In (snd xy) header) ->
  NoDup (map fst (map (emit header D) (final_table rows))).
Proof.
  intros HK0. unfold final_table. rewrite map_map. set (A := aggregate rows).
  assert (HK : forall r, In r (final_sort A) -> exists xy, fst r = Combos.ixp header xy /\ In (fst xy) header /\ In (snd xy) header).
  { intros r Hr. assert (Hr' : In r A) by (apply in_final_sort, Hr).
    apply aggregate_rows in Hr'. destruct Hr' as [Hk _]. apply HK0. exact Hk. }
  assert (HN : NoDup (map fst (final_sort A))).
  { eapply Permutation_NoDup; [apply Permutation_map; symmetry; apply final_sort_perm|apply aggregate_NoDup]. }
  assert (E : map (fun x => fst (emit header D x)) (final_sort A)
              = map (fun k : key => (nth (N.to_nat (fst k)) header [], nth (N.to_nat (snd k)) header [])) (map fst (final_sort A))).
  { rewrite map_map. reflexivity. }
  rewrite E. apply NoDup_map_inj_on; [|exact HN].
  intros k1 k2 H1 H2 Ek. apply in_map_iff in H1, H2. destruct H1 as [r1 [<- H1]], H2 as [r2 [<- H2]].
  destruct (HK _ H1) as [xy1 [E1 [Ha1 Hb1]]], (HK _ H2) as [xy2 [E2 [Ha2 Hb2]]].
  rewrite E1, E2 in *. unfold Combos.ixp in Ek. cbn [fst snd] in Ek. rewrite !nth_sidx in Ek by assumption.
  inversion Ek as [[Ea Eb]]. destruct xy1, xy2. cbn [fst snd] in *. subst. reflexivity.
Qed.

Lemma map_nonempty {A B} (f : A -> B) l : map f l <> [] <-> l <> [].
Proof. destruct l; cbn; split; congruence. Qed.

Definition sel_rows (c : config) (header : list str) (ps : list (option (list str))) (D : N)
           (bes : list (list Stream.line * list Combos.pair)) : list Aggregate.row :=
  flat_map (fun be => map (to_agg header) (batch_triplets_sel c header D (batch_rows ps (fst be)) (snd be))) bes.

(* the batches that evaluated the pair {a, b}, in either orientation *)
Definition holding (bes : list (list Stream.line * list Combos.pair)) (a b : str) :=
  filter (fun be => Combos.umemb (a, b) (snd be)) bes.

(* CapCompose's rows for given selections are [sel_rows] at the batches paired with their selections *)
Lemma cap_all_rows_sel_rows c header ps sels :
  cap_all_rows_sel c header ps sels
  = sel_rows c header ps (common_den (e2e_batches c header ps)) (combine (e2e_batches c header ps) sels).
Proof. reflexivity. Qed.

Lemma holding_nonempty bes a b : holding bes a b <> [] <-> exists be, In be bes /\ Combos.umemb (a, b) (snd be) = true.
Proof.
  unfold holding. rewrite <- filter_length_pos. destruct (filter _ bes); cbn [length]; split; intros H; try lia; congruence.
Qed.

(* after the section: [table_nodup] and [table_const] take Hnd Hl Hbes (and Hconst), [table_cov] takes Hs Hnd Hl Hbes Hcov *)
Section Table.
  Variables (c : config) (header : list str) (ps : list (option (list str))) (D : N)
            (bes : list (list Stream.line * list Combos.pair)).
  Hypothesis Hs : supported_heur (g_heur c) = true.
  Hypothesis Hnd : NoDup header.
  Hypothesis Hl : In (g_label c) header.
  Hypothesis Hbes : forall be, In be bes -> incl (snd be) (cands_of c header) /\ NoDup (snd be).

  Let cands := cands_of c header.
  Let rows := sel_rows c header ps D bes.
  Let T := map (emit header D) (final_table rows).

  (* an evaluated list inherits closedness and orientation from the candidate list *)
  Lemma bes_facts be : In be bes -> incl (snd be) cands /\ closed header (snd be) /\ CombosProofs.once (snd be).
  Proof.
    intros H. destruct (Hbes be H) as [Hi Hn]. destruct (CombosProofs.cands_once header (g_heur c) (g_tro c) (g_label c) Hnd) as [_ Hor].
    split; [exact Hi|]. split; [intros x y Hxy; apply (cands_of_closed c header Hl), Hi, Hxy|]. split; [exact Hn|].
    intros x y H1 H2. apply Hor; apply Hi; assumption.
  Qed.

  Section Cov.
    Hypothesis Hcov : Combos.is_const (g_heur c) = false.

    Let V (be : list Stream.line * list Combos.pair) (xy : str * str) : Z :=
      Z.of_N (pair_num header D (batch_rows ps (fst be)) (fst xy) (snd xy)).

    Lemma rows_cov : rows = vrows header (fun be => mkeys (snd be)) V bes.
    Proof.
      unfold rows, sel_rows, vrows. apply flat_map_ext_in. intros be Hbe.
      destruct (bes_facts be Hbe) as (_ & Hcl & _). apply rows_cov_ev; assumption.
    Qed.

    (* every batch that evaluated {a, b} has the rows (a, b) and (b, a) once each, or (a, a) twice *)
    Lemma cov_scores a b : In a header -> In b header ->
      median2 (scores_of (Combos.ixp header (a, b)) rows) = median2 (map (fun be => V be (a, b)) (holding bes a b)).
    Proof.
      intros Ha Hb. rewrite rows_cov.
      rewrite (vrows_scores header (fun be => mkeys (snd be)) V bes (a, b) (fun be => Combos.umemb (a, b) (snd be)) (pmult a b)).
      - apply median2_replicate, pmult_pos.
      - exact Ha.
      - exact Hb.
      - intros be Hbe. destruct (bes_facts be Hbe) as (_ & Hcl & _). apply mkeys_closed. exact Hcl.
      - intros be Hbe. destruct (bes_facts be Hbe) as (_ & Hcl & Honce). apply mult_mkeys_sel; assumption.
    Qed.

    Lemma cov_keys k : In k (map fst rows) <->
      exists a b, k = Combos.ixp header (a, b) /\ In a header /\ In b header /\ holding bes a b <> [].
    Proof.
      rewrite rows_cov, vrows_keys. split.
      - intros [be [[x y] [Hbe [Hxy ->]]]]. destruct (bes_facts be Hbe) as (_ & Hcl & _).
        destruct (mkeys_closed header _ Hcl _ _ Hxy) as [Hx Hy]. exists x, y. split; [reflexivity|]. split; [exact Hx|].
        split; [exact Hy|]. apply holding_nonempty. exists be. split; [exact Hbe|].
        apply CombosProofs.umemb_uin. apply in_mkeys. exact Hxy.
      - intros [a [b [-> [Ha [Hb Hne]]]]]. apply holding_nonempty in Hne. destruct Hne as [be [Hbe Hu]].
        exists be, (a, b). split; [exact Hbe|]. split; [|reflexivity]. apply in_mkeys. apply CombosProofs.umemb_uin. exact Hu.
    Qed.

    Lemma holding_requested a b : holding bes a b <> [] -> requested c header a b.
    Proof.
      intros H. apply holding_nonempty in H. destruct H as [be [Hbe Hu]]. destruct (bes_facts be Hbe) as (Hi & _).
      apply (requested_uin c header a b Hs). apply CombosProofs.umemb_uin in Hu.
      destruct Hu as [Hu|Hu]; [left|right]; apply Hi; exact Hu.
    Qed.

    Theorem table_cov a b q :
      In (a, b, q) T <->
      requested c header a b /\ holding bes a b <> [] /\
      q = Qmake (median2 (map (fun be => Z.of_N (pair_num header D (batch_rows ps (fst be)) a b)) (holding bes a b))) (den_pos D).
    Proof.
      unfold T. rewrite in_emit_table. split.
      - intros [r [Hr He]]. apply aggregate_rows in Hr. destruct Hr as [Hk Hm].
        apply cov_keys in Hk. destruct Hk as [x [y [Ek [Hx [Hy Hne]]]]].
        destruct r as [k z]. cbn [fst snd] in *. subst k.
        rewrite (emit_ixp header D (x, y) z Hx Hy) in He. cbn [fst snd] in He. inversion He; subst x y q.
        split; [apply holding_requested; exact Hne|]. split; [exact Hne|].
        rewrite Hm, cov_scores by assumption. reflexivity.
      - intros [Hreq [Hne ->]]. destruct Hreq as [Ha [Hb _]].
        exists (Combos.ixp header (a, b), median2 (scores_of (Combos.ixp header (a, b)) rows)). split.
        + apply aggregate_rows. cbn [fst snd]. split; [|reflexivity]. apply cov_keys. exists a, b. auto.
        + rewrite (emit_ixp header D (a, b) _ Ha Hb). cbn [fst snd]. rewrite cov_scores by assumption. reflexivity.
    Qed.

    Lemma cov_keys_closed k : In k (map fst rows) ->
      exists xy, k = Combos.ixp header xy /\ In (fst xy) header /\ In (snd xy) header.
    Proof. intros H. apply cov_keys in H. destruct H as [a [b [-> [Ha [Hb _]]]]]. exists (a, b). auto. Qed.
  End Cov.

  Section Const.
    Hypothesis Hconst : Combos.is_const (g_heur c) = true.

    Lemma rows_const : rows = vrows header (fun be => snd be) (fun _ _ => 0%Z) bes.
    Proof. unfold rows, sel_rows, vrows. apply flat_map_ext. intros be. apply rows_const_ev. exact Hconst. Qed.

    Lemma const_scores k : median2 (scores_of k rows) = 0%Z.
    Proof.
      apply median2_zeros. apply Forall_forall. intros z Hz. apply scores_of_In in Hz.
      rewrite rows_const in Hz. unfold vrows in Hz. apply in_flat_map in Hz. destruct Hz as [be [_ Hz]].
      apply in_map_iff in Hz. destruct Hz as [xy [E _]]. inversion E. reflexivity.
    Qed.

    Theorem table_const a b q :
      In (a, b, q) T <-> (exists be, In be bes /\ In (a, b) (snd be)) /\ q = Qmake 0 (den_pos D).
    Proof.
      unfold T. rewrite in_emit_table. split.
      - intros [r [Hr He]]. apply aggregate_rows in Hr. destruct Hr as [Hk Hm]. rewrite const_scores in Hm.
        rewrite rows_const in Hk. apply vrows_keys in Hk. destruct Hk as [be [[x y] [Hbe [Hxy Ek]]]].
        destruct (bes_facts be Hbe) as (_ & Hcl & _). destruct (Hcl _ _ Hxy) as [Hx Hy].
        destruct r as [k z]. cbn [fst snd] in *. subst k z.
        rewrite (emit_ixp header D (x, y) 0%Z Hx Hy) in He. cbn [fst snd] in He. inversion He; subst x y q.
        split; [|reflexivity]. exists be. split; assumption.
      - intros [[be [Hbe Hin]] ->]. destruct (bes_facts be Hbe) as (_ & Hcl & _). destruct (Hcl _ _ Hin) as [Ha Hb].
        exists (Combos.ixp header (a, b), 0%Z). split.
        + apply aggregate_rows. cbn [fst snd]. split; [|symmetry; apply const_scores].
          rewrite rows_const. apply vrows_keys. exists be, (a, b). auto.
        + rewrite (emit_ixp header D (a, b) _ Ha Hb). reflexivity.
    Qed.

    Lemma const_keys_closed k : In k (map fst rows) ->
      exists xy, k = Combos.ixp header xy /\ In (fst xy) header /\ In (snd xy) header.
    Proof.
      rewrite rows_const. intros H. apply vrows_keys in H. destruct H as [be [[x y] [Hbe [Hxy ->]]]].
      destruct (bes_facts be Hbe) as (_ & Hcl & _). exists (x, y). split; [reflexivity|]. apply (Hcl _ _ Hxy).
    Qed.
  End Const.

  (* one row per ordered pair (C08_median_one_row_per_pair) *)
  Theorem table_nodup : NoDup (map fst T).
  Proof.
    unfold T. apply emit_table_nodup. intros k Hk.
    destruct (Combos.is_const (g_heur c)) eqn:E; [apply (const_keys_closed E)|apply (cov_keys_closed E)]; exact Hk.
  Qed.
End Table.

(* the non-binding run: every batch evaluates the whole candidate list *)

Lemma flat_map_map {A B C} (g : A -> B) (f : B -> list C) l : flat_map f (map g l) = flat_map (fun x => f (g x)) l.
Proof. rewrite !flat_map_concat_map, map_map. reflexivity. Qed.

Definition all_bes (c : config) (header : list str) (bs : list (list Stream.line)) :=
  map (fun b => (b, cands_of c header)) bs.

Lemma all_rows_sel_rows c header ps :
  all_rows c header ps
  = sel_rows c header ps (common_den (e2e_batches c header ps)) (all_bes c header (e2e_batches c header ps)).
Proof. unfold all_rows, sel_rows, all_bes. rewrite flat_map_map. reflexivity. Qed.

Lemma holding_all c header bs a b : supported_heur (g_heur c) = true -> requested c header a b ->
  holding (all_bes c header bs) a b = all_bes c header bs.
Proof.
  intros Hs H. unfold holding. apply filter_all. intros be Hbe. apply in_map_iff in Hbe. destruct Hbe as [b0 [<- _]].
  cbn [snd]. apply CombosProofs.umemb_uin. apply (requested_uin c header a b Hs). exact H.
Qed.

Section Main.
  Variables (c : config) (header : list str) (ps : list (option (list str))) (t : table).
  Hypothesis Hrun : e2e_core c header ps = Some t.

  Let bs := e2e_batches c header ps.
  Let D := common_den bs.
  Let cands := cands_of c header.

  Lemma main_facts : (0 < g_B c)%N /\ supported_heur (g_heur c) = true /\ NoDup header /\ In (g_label c) header /\ bs <> [].
  Proof.
    destruct (e2e_core_some _ _ _ _ Hrun) as (Hok & _ & Hne & _).
    destruct (config_ok_spec _ _ Hok) as (HB & _ & Hs & Hnd & Hl & _). auto.
  Qed.

  Lemma t_eq : t = map (emit header D) (final_table (sel_rows c header ps D (all_bes c header bs))).
  Proof. destruct (e2e_core_some _ _ _ _ Hrun) as (_ & _ & _ & E). rewrite E, all_rows_sel_rows. reflexivity. Qed.

  Lemma all_bes_facts be : In be (all_bes c header bs) -> incl (snd be) cands /\ NoDup (snd be).
  Proof.
    destruct main_facts as (_ & _ & Hnd & _). intros H. apply in_map_iff in H. destruct H as [b [<- _]]. cbn [snd].
    split; [apply incl_refl|]. apply (CombosProofs.cands_once header (g_heur c) (g_tro c) (g_label c) Hnd).
  Qed.

  (* sorted ascending (C08_sorted) *)
  Theorem main_sorted : StronglySorted (fun r1 r2 : str * str * Q => Qle (snd r1) (snd r2)) t.
  Proof. rewrite t_eq. apply emit_table_sorted. Qed.

  Theorem main_nodup : NoDup (map fst t).
  Proof.
    destruct main_facts as (_ & _ & Hnd & Hl & _). rewrite t_eq.
    apply (table_nodup c header ps D (all_bes c header bs) Hnd Hl all_bes_facts).
  Qed.

  Theorem main_cov_rows a b q : Combos.is_const (g_heur c) = false ->
    In (a, b, q) t <->
    requested c header a b /\
    q = Qmake (median2 (map (fun rows => Z.of_N (pair_num header D rows a b)) (batch_tables c header ps))) (den_pos D).
  Proof.
    intros Hcov. destruct main_facts as (_ & Hs & Hnd & Hl & Hne).
    rewrite t_eq, (table_cov c header ps D (all_bes c header bs) Hs Hnd Hl all_bes_facts Hcov).
    assert (E : forall l, map (fun rows => Z.of_N (pair_num header D rows a b)) (map (batch_rows ps) l)
                          = map (fun be => Z.of_N (pair_num header D (batch_rows ps (fst be)) a b)) (all_bes c header l)).
    { intros l. unfold all_bes. rewrite !map_map. reflexivity. }
    unfold batch_tables. fold bs. rewrite E. split.
    - intros (H1 & _ & H3). rewrite (holding_all c header bs a b Hs H1) in H3. auto.
    - intros [H1 H3]. rewrite (holding_all c header bs a b Hs H1). split; [exact H1|]. split; [|exact H3].
      intros E'. apply map_eq_nil in E'. contradiction.
  Qed.

  Theorem main_const_rows a b q : Combos.is_const (g_heur c) = true ->
    In (a, b, q) t <-> In (a, b) cands /\ q = Qmake 0 (den_pos D).
  Proof.
    intros Hconst. destruct main_facts as (_ & Hs & Hnd & Hl & Hne).
    rewrite t_eq, (table_const c header ps D (all_bes c header bs) Hnd Hl all_bes_facts Hconst).
    split; intros [H1 H2]; (split; [|exact H2]).
    - destruct H1 as [be [Hbe Hin]]. apply (all_bes_facts be Hbe). exact Hin.
    - destruct bs as [|b0 r] eqn:E; [congruence|]. exists (b0, cands). split; [left; reflexivity|exact H1].
  Qed.
End Main.
