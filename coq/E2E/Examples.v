(* E2E — non-vacuity: small files evaluated by vm_compute; the hypotheses of the main theorems are satisfiable. *)
From Coq Require Import List NArith ZArith QArith Bool Arith Lia.
From Outrank Require Import IO.Str IO.StrProofs.
From Outrank Require IO.Csv IO.CsvProofs Pipeline.Stream Pipeline.Aggregate Pipeline.Combos Pipeline.CombosProofs Common.ListFacts.
From Outrank Require Import E2E.Compose E2E.CovProofs E2E.RowsProofs E2E.ComposeProofs E2E.FileProofs E2E.SpecProofs.
Import ListNotations.
Local Open Scope N_scope.

(*  x,label,z
    a,1,p
    b,1,p
    a,0,"q,r"        <- a quoted cell with a comma: still three fields
    bad              <- one field: skipped and counted
    a,1,p
    b,0,p            <- remainder of one row: dropped (not more than 1024)                                   *)
Definition ex_names : list (list N) := [[120]; [108; 97; 98; 101; 108]; [122]].
Definition ex_rows : list (list (list N)) :=
  [[[97]; [49]; [112]]; [[98]; [49]; [112]]; [[97]; [48]; [113; 44; 114]]; [[98; 97; 100]]; [[97]; [49]; [112]]; [[98]; [48]; [112]]].
Definition ex_text : list N :=
  [120; 44; 108; 97; 98; 101; 108; 44; 122; 10; 97; 44; 49; 44; 112; 10; 98; 44; 49; 44; 112; 10; 97; 44; 48; 44; 34; 113; 44; 114;
   34; 10; 98; 97; 100; 10; 97; 44; 49; 44; 112; 10; 98; 44; 48; 44; 112; 10].
Definition s_label : list N := [108; 97; 98; 101; 108].
Definition s_False : list N := [70; 97; 108; 115; 101].
Definition ex_cfg := mkconfig 2 1 s_label Combos.s_True h_maxcov 32768.
Definition ex_cfg_pairwise := mkconfig 2 1 s_label s_False h_maxcov 6.
Definition ex_cfg_const := mkconfig 2 1 s_label s_False h_constant 32768.

Example ex_text_is_rendered : render_file ex_names ex_rows = ex_text.
Proof. vm_compute. reflexivity. Qed.

(* two batches of two rows; x vs label: 1/2 and 1/2 -> 1/2; label vs label: 2/2 and 1/2 -> 3/4; z vs label: 2/2, 1/2 -> 3/4 *)
Example ex_run : e2e_run ex_cfg ex_text =
  Some [([120], s_label, 2 # 4); (s_label, [120], 2 # 4); (s_label, s_label, 3 # 4); (s_label, [122], 3 # 4); ([122], s_label, 3 # 4)].
Proof. vm_compute. reflexivity. Qed.

(* pairwise mode with the cap exactly at the number of candidates (every unordered pair once, self pairs included: 6):
   9 ordered pairs in the table *)
Example ex_run_pairwise : option_map (@length _) (e2e_run ex_cfg_pairwise ex_text) = Some 9%nat.
Proof. vm_compute. reflexivity. Qed.

Example ex_run_cap_binding : e2e_run (mkconfig 2 1 s_label s_False h_maxcov 5) ex_text = None.
Proof. vm_compute. reflexivity. Qed.

Example ex_run_const : e2e_run ex_cfg_const ex_text =
  Some [([120], [120], 0 # 4); ([120], s_label, 0 # 4); ([120], [122], 0 # 4); (s_label, s_label, 0 # 4); (s_label, [122], 0 # 4); ([122], [122], 0 # 4)].
Proof. vm_compute. reflexivity. Qed.

(* the hypotheses of E2E_wellformed_file hold for this table, so the run can be stated over the table *)
Example ex_wellformed :
  ex_names <> [] /\ Forall (none (fun ch => (ch =? COMMA) || is_nl ch)) ex_names /\ edge_clean (join_with [COMMA] ex_names) /\
  Forall (fun r => r <> [] /\ Forall (none is_nl) r) ex_rows /\ Forall (Forall CsvProofs.flen_ok) ex_rows.
Proof.
  split; [discriminate|]. split; [repeat constructor|]. split; [split; vm_compute; reflexivity|]. split.
  - repeat (constructor; [split; [discriminate|repeat constructor]|]). constructor.
  - repeat (constructor; [repeat (constructor; [unfold CsvProofs.flen_ok; vm_compute; discriminate|]); constructor|]). constructor.
Qed.

Example ex_run_over_table : e2e_core ex_cfg ex_names (map Some ex_rows) = e2e_run ex_cfg ex_text.
Proof.
  destruct ex_wellformed as (H1 & H2 & H3 & H4 & H5). rewrite <- ex_text_is_rendered. symmetry. apply wellformed_run; assumption.
Qed.

(* the hypotheses of E2E_spec are satisfiable *)
Example ex_spec_hypotheses : exists t, e2e_core ex_cfg (header_of ex_text) (parse_lines ex_text) = Some t /\ Combos.is_const (g_heur ex_cfg) = false.
Proof. eexists. split; [exact ex_run|reflexivity]. Qed.

(* the tail rule inside the composition: a file of n equal rows and B = 2000 *)
Definition tail_text (n : nat) : list N := [97; 44; 121; 10] ++ concat (repeat [117; 44; 49; 10] n).
Definition tail_cfg := mkconfig 2000 1 [121] Combos.s_True h_maxcov 32768.
Lemma batch_rows_equal row n :
  batch_rows (map Some (repeat row n)) (abs_lines (map Some (repeat row n))) = repeat row n.
Proof.
  unfold batch_rows. rewrite (ListFacts.map_const_repeat _ row).
  - rewrite abs_lines_length, map_length, repeat_length. reflexivity.
  - intros l Hl. destruct (in_abs_lines _ _ Hl) as (_ & Hi & _). unfold row_at.
    rewrite (nth_indep _ None (Some row)) by exact Hi. rewrite map_nth, nth_repeat. reflexivity.
Qed.

(* n equal rows of the header's width, fewer than a mini-batch, no sub-sampling: nothing is processed up to 1024 rows;
   beyond, there is one batch, and in it every column pair has a single joint value, i.e. coverage n / n *)
Lemma equal_rows_core c header row n :
  config_ok c header = true -> Combos.is_const (g_heur c) = false -> g_s c = 1 -> length row = length header ->
  (n < N.to_nat (g_B c))%nat ->
  e2e_core c header (map Some (repeat row n)) =
  if (Stream.tail_min <? n)%nat
  then Some (map (emit header (N.of_nat n))
                 (Aggregate.final_table (map (fun xy => (Combos.ixp header xy, Z.of_N (N.of_nat n))) (mkeys (cands_of c header)))))
  else None.
Proof.
  intros Hok Hcov Hs Hrow Hn. destruct (config_ok_spec _ _ Hok) as (_ & _ & _ & _ & Hl & _).
  assert (Hb : e2e_batches c header (map Some (repeat row n))
               = if (Stream.tail_min <? n)%nat then [abs_lines (map Some (repeat row n))] else []).
  { rewrite e2e_batches_short; rewrite ?map_length, ?repeat_length; try assumption; [reflexivity|].
    apply Forall_map, ListFacts.Forall_repeat. exact Hrow. }
  unfold e2e_core, all_rows. rewrite Hok, crashes_parsed, Hb. cbn [negb].
  destruct (Stream.tail_min <? n)%nat eqn:E; [|reflexivity]. apply Nat.ltb_lt in E. unfold Stream.tail_min in E.
  unfold common_den. cbn [map fold_right flat_map]. rewrite app_nil_r, N.lcm_1_r, abs_lines_length, map_length, repeat_length.
  rewrite batch_rows_equal, batch_rows_cov; [|exact Hcov|exact (CombosProofs.cands_closed _ _ _ _ Hl)].
  do 3 f_equal. apply map_ext. intros xy. rewrite pair_num_equal_rows; [reflexivity|lia|apply N.divide_refl].
Qed.

Lemma tail_text_rendered n : tail_text n = render_file [[97]; [121]] (repeat [[117]; [49]] n).
Proof. unfold tail_text, render_file. rewrite map_repeat. reflexivity. Qed.

Lemma tail_file n :
  header_of (tail_text n) = [[97]; [121]] /\ parse_lines (tail_text n) = map Some (repeat [[117]; [49]] n).
Proof.
  rewrite tail_text_rendered. apply wellformed_file.
  - discriminate.
  - repeat constructor.
  - split; vm_compute; reflexivity.
  - apply ListFacts.Forall_repeat. split; [discriminate|repeat constructor].
  - apply ListFacts.Forall_repeat. repeat (constructor; [unfold CsvProofs.flen_ok; vm_compute; discriminate|]). constructor.
Qed.

Lemma tail_config_ok : config_ok tail_cfg [[97]; [121]] = true.
Proof. vm_compute. reflexivity. Qed.

Lemma tail_run n : (n < 2000)%nat ->
  e2e_run tail_cfg (tail_text n) =
  if (Stream.tail_min <? n)%nat
  then Some (map (emit [[97]; [121]] (N.of_nat n))
                 (Aggregate.final_table (map (fun xy => (Combos.ixp [[97]; [121]] xy, Z.of_N (N.of_nat n)))
                                             (mkeys (cands_of tail_cfg [[97]; [121]])))))
  else None.
Proof.
  intros Hn. unfold e2e_run. pose proof (tail_file n) as [E1 E2].
  transitivity (e2e_core tail_cfg [[97]; [121]] (map Some (repeat [[117]; [49]] n))); [f_equal; assumption|].
  apply equal_rows_core; [exact tail_config_ok|reflexivity|reflexivity|reflexivity|cbn [g_B tail_cfg]; lia].
Qed.

Lemma tail_status n : (n <= Stream.tail_min)%nat -> e2e_status tail_cfg (tail_text n) = 3.
Proof.
  intros Hn. unfold e2e_status. pose proof (tail_file n) as [E1 E2]. cbv zeta.
  rewrite E1, E2, tail_config_ok, crashes_parsed. cbn [negb].
  rewrite e2e_batches_short; [|reflexivity| |rewrite map_length, repeat_length; unfold Stream.tail_min in Hn; cbn [g_B tail_cfg]; lia].
  - rewrite map_length, repeat_length. apply Nat.ltb_ge in Hn. rewrite Hn. reflexivity.
  - apply Forall_map, ListFacts.Forall_repeat. reflexivity.
Qed.

Example tail_1024_no_batch : e2e_run tail_cfg (tail_text 1024) = None /\ e2e_status tail_cfg (tail_text 1024) = 3.
Proof. split; [rewrite tail_run by lia; reflexivity|apply tail_status; apply Nat.le_refl]. Qed.
Example tail_1025_one_batch : e2e_run tail_cfg (tail_text 1025) = Some [([97], [121], 2050 # 2050); ([121], [97], 2050 # 2050); ([121], [121], 2050 # 2050)].
Proof. rewrite tail_run by lia. vm_compute. reflexivity. Qed.
(* every second line only (1-based): lines 2, 4, 6; line 4 is malformed and counted; rows 2 and 6 form the only batch *)
Example subsample_2 : e2e_layers (mkconfig 2 2 s_label Combos.s_True h_maxcov 32768) ex_text = (ex_names, 6%nat, [[2; 6]], 1%nat).
Proof. vm_compute. reflexivity. Qed.
