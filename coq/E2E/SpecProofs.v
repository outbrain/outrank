(* E2E — the end-to-end statements assembled from ComposeProofs / CovProofs / FileProofs / ShuffleProofs. *)
From Coq Require Import List NArith ZArith QArith Bool Arith Lia Permutation Sorting.Sorted.
From Coq Require String.
From Outrank Require Import IO.Str IO.StrProofs.
From Outrank Require IO.Csv IO.Accept.
From Outrank Require Import Common.Median.
From Outrank Require Pipeline.Stream Pipeline.StreamProofs.
From Outrank Require Import Pipeline.Aggregate Pipeline.AggregateProofs.
From Outrank Require Import Pipeline.RankGraph Pipeline.RankGraphProofs.
From Outrank Require Pipeline.Sampler Pipeline.Combos Pipeline.CombosProofs.
From Outrank Require Import E2E.Compose E2E.CovProofs E2E.MedianRep E2E.RowsProofs E2E.ComposeProofs E2E.FileProofs E2E.ShuffleProofs.
Import ListNotations.
Local Open Scope nat_scope.

Notation str := (list N) (only parsing).

Definition npos (D : N) : positive := match D with Npos p => p | N0 => 1%positive end.

(* the score of one batch for one ordered pair of columns is the exact coverage of the two columns of CELLS of that
   batch (C05_maxcov_exact, C05_codes_inj), whatever common denominator it is scaled to *)
Theorem batch_score_exact header D rows a b :
  rows <> [] -> (N.of_nat (length rows) | D)%N -> D <> 0%N ->
  Qeq (Z.of_N (pair_num header D rows a b) # npos D) (cells_cov (column header rows a) (column header rows b)) /\
  is_max_cov (column header rows a) (column header rows b) (cells_cov (column header rows a) (column header rows b)).
Proof.
  intros Hne Hd HD. unfold pair_num. apply cov_num_cells.
  - rewrite !column_length. reflexivity.
  - intros E. apply Hne. apply length_zero_iff_nil. rewrite <- (column_length header rows a), E. reflexivity.
  - rewrite column_length. exact Hd.
  - exact HD.
Qed.

(* a batch's score depends on that batch's rows only: it is the same rational under any two admissible scalings
   (so it does not depend on the other batches, which only enter through the common denominator) *)
Theorem batch_split_scores header rows a b D1 D2 :
  rows <> [] -> (N.of_nat (length rows) | D1)%N -> D1 <> 0%N -> (N.of_nat (length rows) | D2)%N -> D2 <> 0%N ->
  Qeq (Z.of_N (pair_num header D1 rows a b) # npos D1) (Z.of_N (pair_num header D2 rows a b) # npos D2).
Proof.
  intros Hne H1 H1' H2 H2'.
  destruct (batch_score_exact header D1 rows a b Hne H1 H1') as [E1 _].
  destruct (batch_score_exact header D2 rows a b Hne H2 H2') as [E2 _].
  rewrite E1, E2. reflexivity.
Qed.

Lemma requested_sym c header a b : requested c header a b -> requested c header b a.
Proof. unfold requested. tauto. Qed.


(* THE end-to-end statement for max-value-coverage *)
Theorem e2e_spec c header ps t :
  e2e_core c header ps = Some t -> Combos.is_const (g_heur c) = false ->
  let tables := batch_tables c header ps in
  let D := common_den (e2e_batches c header ps) in
  tables <> [] /\ D <> 0%N /\ Forall (fun rows => rows <> [] /\ (N.of_nat (length rows) | D)%N) tables /\
  StronglySorted (fun r1 r2 : str * str * Q => Qle (snd r1) (snd r2)) t /\
  NoDup (map fst t) /\
  (forall a b q, In (a, b, q) t <->
     requested c header a b /\
     q = Qmake (median2 (map (fun rows => Z.of_N (pair_num header D rows a b)) tables)) (den_pos D)) /\
  (forall a b, requested c header a b -> requested c header b a) /\
  (forall rows a b, In rows tables ->
     Qeq (Z.of_N (pair_num header D rows a b) # npos D) (cells_cov (column header rows a) (column header rows b)) /\
     is_max_cov (column header rows a) (column header rows b) (cells_cov (column header rows a) (column header rows b))).
Proof.
  intros Hrun Hcov tables D. destruct (main_facts c header ps t Hrun) as (HB & _ & _ & _ & Hne).
  destruct (batch_tables_spec c header ps HB Hne) as (H1 & H2 & H3).
  split; [exact H1|]. split; [exact H2|]. split; [exact H3|].
  split; [apply (main_sorted c header ps t Hrun)|]. split; [apply (main_nodup c header ps t Hrun)|].
  split; [intros a b q; apply (main_cov_rows c header ps t Hrun a b q Hcov)|].
  split; [intros a b; apply requested_sym|].
  intros rows a b Hin. fold tables in H3. rewrite Forall_forall in H3. destruct (H3 rows Hin) as [Hr Hd].
  apply batch_score_exact; assumption.
Qed.

(* ... and for Constant: exactly the candidate pairs of C06, each once, score 0 *)
Theorem e2e_spec_constant c header ps t :
  e2e_core c header ps = Some t -> Combos.is_const (g_heur c) = true ->
  batch_tables c header ps <> [] /\
  NoDup (map fst t) /\
  (forall a b q, In (a, b, q) t <-> In (a, b) (cands_of c header) /\ q = Qmake 0 (den_pos (common_den (e2e_batches c header ps)))) /\
  (forall a b, CombosProofs.uin (a, b) (cands_of c header) <-> requested c header a b).
Proof.
  intros Hrun Hc. destruct (main_facts c header ps t Hrun) as (HB & Hs & _ & _ & Hne).
  destruct (batch_tables_spec c header ps HB Hne) as (H1 & _ & _).
  split; [exact H1|]. split; [apply (main_nodup c header ps t Hrun)|].
  split; [intros a b q; apply (main_const_rows c header ps t Hrun a b q Hc)|].
  intros a b. apply requested_uin. exact Hs.
Qed.

(* which pairs are requested: the two modes *)
Theorem requested_pairs c header a b :
  (Combos.is_tonly (g_tro c) = true -> (requested c header a b <-> In a header /\ In b header /\ (a = g_label c \/ b = g_label c))) /\
  (Combos.is_tonly (g_tro c) = false -> (requested c header a b <-> In a header /\ In b header)).
Proof.
  unfold requested. split; intros H; rewrite H; [tauto|]. split; [tauto|]. intros [? ?]. repeat split; auto. discriminate.
Qed.

(* the batches (C08_batches) and the rows in them (C16 validity test) *)
Theorem e2e_batches_rows c header ps : (0 < g_B c)%N ->
  e2e_batches c header ps =
    (let g := good_lines c header ps in let B := N.to_nat (g_B c) in
     fst (Stream.chunks B g) ++ (if Stream.tail_min <? length (snd (Stream.chunks B g)) then [snd (Stream.chunks B g)] else [])) /\
  (crashes c ps = false -> forall b l, In b (e2e_batches c header ps) -> In l b ->
     N.modulo (fst l) (g_s c) = 0%N /\ (1 <= fst l)%N /\
     exists fs, nth (N.to_nat (N.pred (fst l))) ps None = Some fs /\ length fs = length header /\ row_at ps (fst l) = fs).
Proof.
  intros HB. split; [apply e2e_batches_spec; exact HB|]. intros Hc b l Hb Hl. apply (batch_line_spec c header ps b l HB Hc Hb Hl).
Qed.

(* the text layer *)
Theorem text_run c text :
  e2e_run c text = e2e_core c (Accept.csv_raw_header text) (map Csv.parse (tl (phys_lines text))) /\
  (Forall (fun ln => (N.of_nat (length ln) <= Csv.field_limit)%N) (tl (phys_lines text)) ->
   crashes c (map Csv.parse (tl (phys_lines text))) = false).
Proof. split; [reflexivity|apply (no_csv_error c text)]. Qed.

(* two runs, each with its own sampler states and shuffles, give the same table *)
Theorem deterministic c header ps (st1 st2 : list Sampler.al) (evl1 evl2 : list (list Combos.pair)) :
  (Z.of_nat (length (cands_of c header)) <= g_cap c)%Z ->
  length evl1 = length (e2e_batches c header ps) -> length evl2 = length (e2e_batches c header ps) ->
  Forall2 (fun s ev => Permutation ev (fst (Combos.select s (cands_of c header) (g_cap c)))) st1 evl1 ->
  Forall2 (fun s ev => Permutation ev (fst (Combos.select s (cands_of c header) (g_cap c)))) st2 evl2 ->
  final_table (all_rows_ev c header ps evl1) = final_table (all_rows_ev c header ps evl2).
Proof.
  intros Hcap L1 L2 F1 F2.
  rewrite (sampler_shuffle_independent c header ps st1 evl1 Hcap L1 F1).
  rewrite (sampler_shuffle_independent c header ps st2 evl2 Hcap L2 F2). reflexivity.
Qed.

Import Coq.Strings.String.
Lemma h_maxcov_text : h_maxcov = s_of "max-value-coverage"%string.
Proof. reflexivity. Qed.
