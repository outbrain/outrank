(* E2Ecap — proofs about the composed model with a binding per-batch cap (E2E/CapCompose.v).
   Layer facts are imported: the sampler (Pipeline/SamplerProofs.v: step_valid, selection_history_fair, hist_counts, ...),
   the candidate list (Pipeline/CombosProofs.v: cands_once, decode_pidx, select_run_ok), the table of a run with given per-batch
   selections (E2E/ComposeProofs.v, Section Table).  What is proved here: the threading of the counter through the batches,
   selections as candidate ids against selections as pairs, and the statements for every admissible selection history
   (sels_ok); Sampler.step's own history is admissible, which gives the statements for the deterministic model. *)
From Coq Require Import List NArith ZArith QArith Bool Arith Lia Permutation Sorting.Sorted.
From Outrank Require Import IO.Str IO.StrProofs.
From Outrank Require IO.Csv IO.CsvProofs IO.Accept.
From Outrank Require Import Common.Median.
From Outrank Require Import Pipeline.Aggregate.
From Outrank Require Pipeline.Sampler Pipeline.SamplerProofs Pipeline.Combos Pipeline.CombosProofs.
From Outrank Require Import Common.ListFacts E2E.Compose E2E.CovProofs E2E.RowsProofs E2E.ComposeProofs E2E.FileProofs
  E2E.ShuffleProofs E2E.SpecProofs E2E.CapCompose.
Import ListNotations.
Local Open Scope nat_scope.

Notation str := (list N) (only parsing).
Local Notation cocc := (count_occ Nat.eq_dec).

Lemma cap_steps_length L cap nb : forall s, length (fst (cap_steps s L cap nb)) = nb.
Proof. induction nb as [|nb IH]; intros s; [reflexivity|]. cbn [cap_steps fst length]. rewrite IH. reflexivity. Qed.

Lemma cap_steps_run L cap nb : forall s,
  fst (cap_steps s L cap nb) = map fst (Sampler.run s (repeat (L, cap) nb)).
Proof.
  induction nb as [|nb IH]; intros s; [reflexivity|]. cbn [cap_steps fst repeat Sampler.run].
  destruct (Sampler.step s L cap) as [sel s'] eqn:E. cbn [map fst snd]. rewrite IH. reflexivity.
Qed.

Lemma cap_steps_snoc L cap nb : forall s,
  cap_steps s L cap (S nb) =
  (fst (cap_steps s L cap nb) ++ [fst (Sampler.step (snd (cap_steps s L cap nb)) L cap)],
   snd (Sampler.step (snd (cap_steps s L cap nb)) L cap)).
Proof.
  induction nb as [|nb IH]; intros s; [reflexivity|].
  change (cap_steps s L cap (S (S nb)))
    with (fst (Sampler.step s L cap) :: fst (cap_steps (snd (Sampler.step s L cap)) L cap (S nb)),
          snd (cap_steps (snd (Sampler.step s L cap)) L cap (S nb))).
  rewrite (IH (snd (Sampler.step s L cap))). reflexivity.
Qed.

Lemma cap_steps_hist L cap nb :
  SamplerProofs.hist (fst (cap_steps [] L cap nb)) (Sampler.get (snd (cap_steps [] L cap nb))).
Proof.
  induction nb as [|nb IH]; [constructor|]. rewrite cap_steps_snoc. cbn [fst snd].
  eapply SamplerProofs.histS; [exact IH|apply SamplerProofs.step_valid].
Qed.

Lemma cap_steps_reach L cap nb : SamplerProofs.reach L (Sampler.get (snd (cap_steps [] L cap nb))).
Proof.
  induction nb as [|nb IH]; [constructor|]. rewrite cap_steps_snoc. cbn [snd].
  eapply SamplerProofs.reachS; [exact IH|apply SamplerProofs.step_valid].
Qed.

Lemma cap_steps_get L cap nb k :
  Sampler.get (snd (cap_steps [] L cap nb)) k = Sampler.sel_count (fst (cap_steps [] L cap nb)) k.
Proof. exact (SamplerProofs.hist_counts _ _ (cap_steps_hist L cap nb) k). Qed.

(* the first call enters the candidates into the empty counter in list order; later calls find them there *)
Lemma cap_steps_keys L cap nb : NoDup L -> 0 < nb -> map fst (snd (cap_steps [] L cap nb)) = L.
Proof.
  intros Hnd. induction nb as [|nb IH]; intros Hnb; [lia|]. destruct nb as [|nb'].
  - cbn [cap_steps snd]. apply SamplerProofs.step_keys_fresh. exact Hnd.
  - rewrite cap_steps_snoc. cbn [snd]. rewrite SamplerProofs.step_keys_in; rewrite IH by lia; [reflexivity|apply incl_refl].
Qed.

Lemma cap_cands_eq c header : cap_cands c header = cands_of c header.
Proof. reflexivity. Qed.

Lemma cap_ids_nodup cands : NoDup cands -> NoDup (cap_ids cands).
Proof.
  intros H. unfold cap_ids. apply NoDup_map_inj_on; [|exact H]. intros x y Hx Hy. apply CombosProofs.pidx_inj; assumption.
Qed.

Lemma pidx_in_ids cands p : In p cands -> In (Combos.pidx cands p) (cap_ids cands).
Proof. intros H. unfold cap_ids. apply in_map. exact H. Qed.

(* selections as ids against selections as pairs: a selection of candidate ids is the list of its pairs, read back as
   positions, and a position names one candidate (pidx_inj) *)
Lemma sel_pairs_enc cands isel : incl isel (cap_ids cands) ->
  incl (map (of_id cands) isel) cands /\ map (Combos.pidx cands) (map (of_id cands) isel) = isel.
Proof. exact (CombosProofs.decode_pidx cands isel). Qed.

Lemma sel_pairs_facts cands isel : incl isel (cap_ids cands) -> NoDup isel ->
  incl (map (of_id cands) isel) cands /\ NoDup (map (of_id cands) isel).
Proof.
  intros Hi Hn. destruct (sel_pairs_enc cands isel Hi) as [Hs E].
  split; [exact Hs|]. apply (NoDup_map_inv (Combos.pidx cands)). rewrite E. exact Hn.
Qed.

Lemma cap_steps_select_run cands cap nb : forall s,
  map (map (of_id cands)) (fst (cap_steps s (cap_ids cands) cap nb)) = Combos.select_run s cands cap nb.
Proof. induction nb as [|nb IH]; intros s; [reflexivity|]. cbn [cap_steps fst map Combos.select_run]. rewrite IH. reflexivity. Qed.

Lemma cap_sels_select_run c header ps :
  cap_sels c header ps = Combos.select_run [] (cap_cands c header) (g_cap c) (nbatches c header ps).
Proof. apply cap_steps_select_run. Qed.

Lemma cap_sels_length c header ps : length (cap_sels c header ps) = length (e2e_batches c header ps).
Proof. rewrite cap_sels_select_run, CombosProofs.select_run_length. reflexivity. Qed.

Lemma cap_sels_ok c header ps : Forall (CombosProofs.selected_ok (cap_cands c header) (g_cap c)) (cap_sels c header ps).
Proof. rewrite cap_sels_select_run. apply CombosProofs.select_run_ok. Qed.

(* number of batches whose selection lists p *)
Definition nsel (sels : list (list Combos.pair)) (p : Combos.pair) : nat := length (filter (Combos.listedb p) sels).

(* the id of a candidate occurs among the ids of a duplicate-free selection as often as the candidate in it: once or never *)
Lemma cocc_ids cands sel p : incl sel cands -> NoDup sel -> In p cands ->
  cocc (map (Combos.pidx cands) sel) (Combos.pidx cands p) = if Combos.listedb p sel then 1 else 0.
Proof.
  intros Hs Hn Hp. rewrite <- (pcount_nodup p sel Hn).
  exact (CombosProofs.cocc_map_enc (Combos.pidx cands) cands sel p (CombosProofs.pidx_inj cands) Hs Hp).
Qed.

Lemma sel_count_nsel cands p : In p cands -> forall isels,
  Forall (fun isel => incl isel (cap_ids cands) /\ NoDup isel) isels ->
  Sampler.sel_count isels (Combos.pidx cands p) = nsel (map (map (of_id cands)) isels) p.
Proof.
  intros Hp. induction 1 as [|isel isels [Hi Hn] _ IH]; [reflexivity|].
  destruct (sel_pairs_facts cands isel Hi Hn) as [Hs Hns].
  rewrite SamplerProofs.sel_count_cons, IH. rewrite <- (proj2 (sel_pairs_enc cands isel Hi)) at 1.
  rewrite (cocc_ids cands _ p Hs Hns Hp). unfold nsel. cbn [map filter].
  destruct (Combos.listedb p (map (of_id cands) isel)); reflexivity.
Qed.

(* least-evaluated first, at every batch: a selected candidate has been selected no more often before than an unselected
   one.  Every call of Combos.select is a valid step on the ids of its selection (select_valid). *)
Lemma select_run_least cands cap : NoDup cands -> forall nb s i p q, In p cands ->
  In p (nth i (Combos.select_run s cands cap nb) []) -> In q cands -> ~ In q (nth i (Combos.select_run s cands cap nb) []) ->
  Sampler.get s (Combos.pidx cands p) + nsel (firstn i (Combos.select_run s cands cap nb)) p
  <= Sampler.get s (Combos.pidx cands q) + nsel (firstn i (Combos.select_run s cands cap nb)) q.
Proof.
  intros Hnd. induction nb as [|nb IH]; intros s i p q Hpc Hp Hq Hnq; [destruct i; destruct Hp|].
  cbn [Combos.select_run] in *. pose proof (CombosProofs.select_valid s cands cap) as V.
  pose proof (CombosProofs.select_fst_incl s cands cap) as Hs.
  assert (Hn : NoDup (fst (Combos.select s cands cap))).
  { apply (NoDup_map_inv (Combos.pidx cands)). apply (SamplerProofs.vs_nodup _ _ _ _ _ (cap_ids_nodup cands Hnd) V). }
  destruct i as [|j]; cbn [nth firstn] in *.
  - unfold nsel. cbn [filter length]. rewrite !Nat.add_0_r.
    apply (SamplerProofs.vs_least_first _ _ _ _ _ V); [apply in_map; exact Hp|apply pidx_in_ids; exact Hq|].
    intros H. apply in_map_iff in H. destruct H as [r [E Hr]].
    apply CombosProofs.pidx_inj in E; [subst r; exact (Hnq Hr)|apply Hs; exact Hr|exact Hq].
  - pose proof (IH (snd (Combos.select s cands cap)) j p q Hpc Hp Hq Hnq) as H.
    rewrite !(Sampler.vs_state _ _ _ _ _ V), !(cocc_ids cands _ _ Hs Hn) in H by assumption.
    unfold nsel in *. cbn [filter].
    destruct (Combos.listedb p (fst (Combos.select s cands cap))), (Combos.listedb q (fst (Combos.select s cands cap))); cbn [length]; lia.
Qed.

(* the evaluated list: CapCompose's, Compose's and ShuffleProofs' forms are the same terms *)
Lemma batch_triplets_sel_ev c header D rows ev :
  batch_triplets_sel c header D rows ev = batch_triplets_ev c header D rows ev.
Proof. reflexivity. Qed.

Lemma batch_triplets_is_sel c header D rows :
  batch_triplets c header D rows = batch_triplets_sel c header D rows (cap_cands c header).
Proof. reflexivity. Qed.

Lemma cap_all_rows_ev c header ps : cap_all_rows c header ps = all_rows_ev c header ps (cap_sels c header ps).
Proof. rewrite all_rows_ev_sel. reflexivity. Qed.

Lemma cap_config_ok_spec c header : cap_config_ok c header = true ->
  (0 < g_B c)%N /\ (0 < g_s c)%N /\ supported_heur (g_heur c) = true /\ NoDup header /\ In (g_label c) header /\
  (1 <= g_cap c)%Z.
Proof.
  rewrite cap_config_ok_base, andb_true_iff. intros [H H6]. apply Z.leb_le in H6.
  destruct (base_ok_spec c header H) as (H1 & H2 & H3 & H4 & H5). auto 10.
Qed.

(* the tables of exactly the batches whose selection holds the pair {a, b} (either orientation) *)
Definition contributing_sel (c : config) (header : list str) (ps : list (option (list str))) (sels : list (list Combos.pair))
           (a b : str) : list (list (list str)) :=
  map fst (filter (fun ts => Combos.umemb (a, b) (snd ts)) (combine (batch_tables c header ps) sels)).
Definition contributing (c : config) (header : list str) (ps : list (option (list str))) (a b : str) : list (list (list str)) :=
  contributing_sel c header ps (cap_sels c header ps) a b.

(* the label is a column: (label, label) is a candidate, so the candidate list is not empty *)
Lemma cands_nonempty c header : supported_heur (g_heur c) = true -> In (g_label c) header -> cap_cands c header <> [].
Proof.
  intros Hs Hl E.
  assert (H : CombosProofs.uin (g_label c, g_label c) (cands_of c header)).
  { apply (requested_uin c header _ _ Hs). unfold requested. auto. }
  rewrite <- cap_cands_eq, E in H. destruct H as [[]|[]].
Qed.

Lemma e2ecap_core_pairs_some c header ps sels t : e2ecap_core_pairs c header ps sels = Some t ->
  cap_config_ok c header = true /\ crashes c ps = false /\ e2e_batches c header ps <> [] /\
  t = map (emit header (common_den (e2e_batches c header ps))) (final_table (cap_all_rows_sel c header ps sels)).
Proof. apply run_some. Qed.

Lemma e2ecap_core_is_pairs c header ps : e2ecap_core c header ps = e2ecap_core_pairs c header ps (cap_sels c header ps).
Proof. reflexivity. Qed.

Lemma contributing_sel_holding c header ps sels a b :
  contributing_sel c header ps sels a b
  = map (fun be => batch_rows ps (fst be)) (holding (combine (e2e_batches c header ps) sels) a b).
Proof. unfold contributing_sel, batch_tables, holding. rewrite <- (map_id sels) at 1. rewrite combine_map_both, filter_map_comm, map_map. reflexivity. Qed.

Lemma umemb_sym a b l : Combos.umemb (a, b) l = Combos.umemb (b, a) l.
Proof. rewrite !umemb_listed. apply orb_comm. Qed.

Lemma umemb_cand cands sel a b : CombosProofs.once cands -> incl sel cands -> In (a, b) cands ->
  Combos.umemb (a, b) sel = Combos.listedb (a, b) sel.
Proof.
  intros [_ Hor] Hi Hc. rewrite umemb_listed. destruct (Combos.listedb (b, a) sel) eqn:E; [|apply orb_false_r].
  apply CombosProofs.listedb_In in E. pose proof (Hor a b Hc (Hi _ E)) as Eab. subst b.
  apply CombosProofs.listedb_In in E. unfold Combos.pair, Combos.str in *. rewrite E. reflexivity.
Qed.

Lemma contributing_sel_nsel c header ps sels a b :
  CombosProofs.once (cap_cands c header) -> (forall sel, In sel sels -> incl sel (cap_cands c header)) ->
  length sels = length (e2e_batches c header ps) -> In (a, b) (cap_cands c header) ->
  length (contributing_sel c header ps sels a b) = nsel sels (a, b).
Proof.
  intros Honce Hi Hl Hc. unfold contributing_sel, nsel. rewrite map_length.
  rewrite <- (map_snd_combine (batch_tables c header ps) sels) at 2 by (unfold batch_tables; rewrite map_length; symmetry; exact Hl).
  rewrite filter_map_comm, map_length. f_equal. apply filter_ext_in. intros [rows sel] Hin.
  apply (umemb_cand _ sel a b Honce (Hi sel (in_combine_r _ _ _ _ Hin)) Hc).
Qed.

Lemma contributing_sel_sym c header ps sels a b : contributing_sel c header ps sels a b = contributing_sel c header ps sels b a.
Proof. unfold contributing_sel. f_equal. apply filter_ext. intros ts. apply umemb_sym. Qed.

Lemma contributing_sel_incl c header ps sels a b : incl (contributing_sel c header ps sels a b) (batch_tables c header ps).
Proof.
  unfold contributing_sel. intros rows H. apply in_map_iff in H. destruct H as [[r sel] [<- H]].
  apply filter_In in H. destruct H as [H _]. apply in_combine_l in H. exact H.
Qed.

(* the transcription's own history is accepted, also against the counts derived from the selections alone *)
Lemma derived_valid_runb L cap : forall nb s d, (forall k, Sampler.get d k = Sampler.get s k) ->
  Sampler.valid_runb d (map (fun cp : Z => (L, cp)) (repeat cap nb)) (Sampler.derived_obs d (fst (cap_steps s L cap nb))) = true.
Proof.
  induction nb as [|nb IH]; intros s d E; [reflexivity|].
  cbn [cap_steps fst repeat map Sampler.derived_obs Sampler.valid_runb].
  pose proof (SamplerProofs.step_valid s L cap) as V.
  assert (E' : forall k, Sampler.get (fold_left Sampler.incr (fst (Sampler.step s L cap)) d) k = Sampler.get (snd (Sampler.step s L cap)) k).
  { intros k. rewrite SamplerProofs.get_fold_incr, E. symmetry. apply (Sampler.vs_state _ _ _ _ _ V). }
  apply andb_true_iff. split.
  - apply SamplerProofs.valid_stepb_complete.
    (* the states read the same counts before the step (E) and after it (E') *)
    exact (SamplerProofs.valid_step_ext _ _ _ _ _ _ _ (fun k => eq_sym (E k)) (fun k => eq_sym (E' k)) V).
  - apply IH. exact E'.
Qed.

Lemma sels_ok_spec c header ps isels : sels_ok c header ps isels = true ->
  length isels = nbatches c header ps /\
  Sampler.valid_runb [] (cap_ops c header (nbatches c header ps)) (Sampler.derived_obs [] isels) = true.
Proof. unfold sels_ok. rewrite andb_true_iff, Nat.eqb_eq. tauto. Qed.

Lemma sels_ok_facts c header ps isels : NoDup header -> sels_ok c header ps isels = true ->
  length isels = nbatches c header ps /\
  Forall (fun isel => incl isel (cap_ids (cap_cands c header)) /\ NoDup isel) isels.
Proof.
  intros Hnd H. destruct (sels_ok_spec _ _ _ _ H) as [Hl Hv]. split; [exact Hl|].
  unfold cap_ops in Hv. destruct (SamplerProofs.valid_runb_derived_facts _ _ _ _ Hv) as [_ F].
  eapply Forall_impl; [|exact F]. intros isel [H1 H2]. split; [exact H1|]. apply H2.
  apply cap_ids_nodup. exact (proj1 (CombosProofs.cands_once header (g_heur c) (g_tro c) (g_label c) Hnd)).
Qed.

(* the table of counts a selection history implies: every candidate, in list order, with its number of selections *)
Lemma counts_sel_eq c header isels :
  Forall (fun isel => incl isel (cap_ids (cap_cands c header)) /\ NoDup isel) isels ->
  cap_counts_sel c header isels = map (fun p => (p, nsel (sel_pairs c header isels) p)) (cap_cands c header).
Proof.
  intros F. unfold cap_counts_sel, cap_counter_sel, cap_ids, sel_pairs. rewrite !map_map. apply map_ext_in. intros p Hp.
  cbn [fst snd]. f_equal; [apply CombosProofs.nth_pidx; exact Hp|apply sel_count_nsel; assumption].
Qed.

(* an admissible selection history [isels] and the table [t] of the run that evaluates it: ComposeProofs' Table at the
   batches paired with their selections.
   After the section: [rel_facts], [rel_table] and [rel_oriented] take Hrun only, every other statement Hok Hrun (a
   theorem then its own hypothesis) *)
Section CapRel.
  Variables (c : config) (header : list str) (ps : list (option (list str))) (isels : list (list Sampler.key)) (t : table).
  Hypothesis Hok : sels_ok c header ps isels = true.
  Hypothesis Hrun : e2ecap_core_sel c header ps isels = Some t.

  Let bs := e2e_batches c header ps.
  Let D := common_den bs.
  Let tables := batch_tables c header ps.
  Let cands := cap_cands c header.    (* RowsProofs.cands_of, the list Section Table speaks of, by definition (cap_cands_eq) *)
  Let ids := cap_ids cands.
  Let sels := sel_pairs c header isels.
  Let bes := combine bs sels.

  Lemma rel_facts :
    (0 < g_B c)%N /\ supported_heur (g_heur c) = true /\ NoDup header /\ In (g_label c) header /\ bs <> [] /\
    CombosProofs.once cands.
  Proof.
    destruct (e2ecap_core_pairs_some _ _ _ _ _ Hrun) as (Hc & _ & Hne & _).
    destruct (cap_config_ok_spec _ _ Hc) as (HB & _ & Hs & Hnd & Hl & _).
    pose proof (CombosProofs.cands_once header (g_heur c) (g_tro c) (g_label c) Hnd) as Honce. auto 10.
  Qed.

  Lemma rel_table : t = map (emit header D) (final_table (sel_rows c header ps D bes)).
  Proof. destruct (e2ecap_core_pairs_some _ _ _ _ _ Hrun) as (_ & _ & _ & E). rewrite cap_all_rows_sel_rows in E. exact E. Qed.

  Lemma rel_isels : length isels = nbatches c header ps /\ Forall (fun isel => incl isel ids /\ NoDup isel) isels.
  Proof. destruct rel_facts as (_ & _ & Hnd & _). apply sels_ok_facts; [exact Hnd|exact Hok]. Qed.

  Lemma rel_len : length sels = length bs.
  Proof. unfold sels, sel_pairs. rewrite map_length. apply (proj1 rel_isels). Qed.

  Lemma rel_sel sel : In sel sels -> incl sel cands /\ NoDup sel.
  Proof.
    intros H. unfold sels, sel_pairs in H. apply in_map_iff in H. destruct H as [isel [<- Hin]].
    destruct rel_isels as [_ F]. rewrite Forall_forall in F. destruct (F _ Hin) as [H1 H2].
    apply sel_pairs_facts; assumption.
  Qed.

  Lemma rel_bes be : In be bes -> incl (snd be) cands /\ NoDup (snd be).
  Proof. intros H. destruct be as [b sel]. apply in_combine_r in H. apply rel_sel. exact H. Qed.

  Lemma rel_tables :
    tables <> [] /\ D <> 0%N /\ Forall (fun rows => rows <> [] /\ (N.of_nat (length rows) | D)%N) tables /\
    length isels = length tables.
  Proof.
    destruct rel_facts as (HB & _ & _ & _ & Hne & _). destruct (batch_tables_spec c header ps HB Hne) as (H1 & H2 & H3).
    split; [exact H1|]. split; [exact H2|]. split; [exact H3|].
    unfold tables, batch_tables. rewrite map_length. apply (proj1 rel_isels).
  Qed.

  Lemma rel_nodup : NoDup (map fst t).
  Proof.
    destruct rel_facts as (_ & _ & Hnd & Hl & _). rewrite rel_table.
    apply (table_nodup c header ps D bes Hnd Hl rel_bes).
  Qed.

  Theorem e2ecap_spec_rel : Combos.is_const (g_heur c) = false ->
    tables <> [] /\ D <> 0%N /\ Forall (fun rows => rows <> [] /\ (N.of_nat (length rows) | D)%N) tables /\
    length isels = length tables /\
    StronglySorted (fun r1 r2 : str * str * Q => Qle (snd r1) (snd r2)) t /\
    NoDup (map fst t) /\
    (forall a b q, In (a, b, q) t <->
       requested c header a b /\ contributing_sel c header ps sels a b <> [] /\
       q = Qmake (median2 (map (fun rows => Z.of_N (pair_num header D rows a b)) (contributing_sel c header ps sels a b))) (den_pos D)) /\
    (forall a b, requested c header a b -> requested c header b a) /\
    (forall a b, contributing_sel c header ps sels a b = contributing_sel c header ps sels b a /\
                 incl (contributing_sel c header ps sels a b) tables) /\
    (forall rows a b, In rows tables ->
       Qeq (Z.of_N (pair_num header D rows a b) # npos D) (cells_cov (column header rows a) (column header rows b)) /\
       is_max_cov (column header rows a) (column header rows b) (cells_cov (column header rows a) (column header rows b))).
  Proof.
    intros Hcov. destruct rel_facts as (_ & Hs & Hnd & Hl & _). destruct rel_tables as (H1 & H2 & H3 & H4).
    split; [exact H1|]. split; [exact H2|]. split; [exact H3|]. split; [exact H4|].
    split; [rewrite rel_table; apply emit_table_sorted|]. split; [exact rel_nodup|]. split.
    { intros a b q. rewrite rel_table, (table_cov c header ps D bes Hs Hnd Hl rel_bes Hcov), contributing_sel_holding, map_map.
      rewrite map_nonempty. reflexivity. }
    split; [intros a b; apply requested_sym|].
    split; [intros a b; split; [apply contributing_sel_sym|apply contributing_sel_incl]|].
    intros rows a b Hin. rewrite Forall_forall in H3. destruct (H3 rows Hin) as [Hr Hd].
    apply batch_score_exact; assumption.
  Qed.

  Theorem e2ecap_spec_constant_rel : Combos.is_const (g_heur c) = true ->
    tables <> [] /\
    NoDup (map fst t) /\
    (forall a b q, In (a, b, q) t <->
       In (a, b) cands /\ (exists sel, In sel sels /\ In (a, b) sel) /\ q = Qmake 0 (den_pos D)).
  Proof.
    intros Hconst. destruct rel_facts as (_ & _ & Hnd & Hl & _).
    split; [exact (proj1 rel_tables)|]. split; [exact rel_nodup|].
    intros a b q. rewrite rel_table, (table_const c header ps D bes Hnd Hl rel_bes Hconst). split.
    - intros [[[b0 sel] [Hbe Hin]] Hq]. pose proof (in_combine_r _ _ _ _ Hbe) as Hsel. cbn [snd] in Hin.
      split; [exact (proj1 (rel_sel sel Hsel) _ Hin)|]. split; [exists sel; auto|exact Hq].
    - intros (_ & [sel [Hsel Hin]] & Hq). rewrite <- (map_snd_combine bs sels) in Hsel by (symmetry; exact rel_len).
      apply in_map_snd in Hsel. destruct Hsel as [b0 Hbe]. split; [|exact Hq]. exists (b0, sel). auto.
  Qed.

  (* the three counts of a candidate agree: selections of its id, selections listing it, batches contributing to its median *)
  Lemma rel_nsel p : In p cands -> nsel sels p = Sampler.sel_count isels (Combos.pidx cands p).
  Proof. intros Hp. symmetry. apply (sel_count_nsel cands p Hp isels (proj2 rel_isels)). Qed.

  Lemma rel_contributing_nsel a b : In (a, b) cands -> length (contributing_sel c header ps sels a b) = nsel sels (a, b).
  Proof.
    intros Hc. destruct rel_facts as (_ & _ & _ & _ & _ & Honce).
    apply contributing_sel_nsel; [exact Honce| |apply rel_len|exact Hc]. intros sel Hs. exact (proj1 (rel_sel sel Hs)).
  Qed.

  (* C07_selection_history_fair instantiated *)
  Lemma rel_id_fair i j : In i ids -> In j ids -> Sampler.sel_count isels i <= S (Sampler.sel_count isels j).
  Proof.
    destruct (sels_ok_spec _ _ _ _ Hok) as [_ Hv]. unfold cap_ops in Hv. destruct rel_facts as (_ & _ & _ & _ & _ & Honce).
    apply (SamplerProofs.selection_history_fair ids (repeat (g_cap c) (nbatches c header ps)) isels); [|exact Hv].
    apply cap_ids_nodup. exact (proj1 Honce).
  Qed.

  Lemma rel_nsel_fair p q : In p cands -> In q cands -> nsel sels p <= S (nsel sels q).
  Proof. intros Hp Hq. rewrite !rel_nsel by assumption. apply rel_id_fair; apply pidx_in_ids; assumption. Qed.

  Lemma rel_oriented a b : requested c header a b ->
    exists x y, In (x, y) cands /\ contributing_sel c header ps sels a b = contributing_sel c header ps sels x y.
  Proof.
    destruct rel_facts as (_ & Hs & _). intros H. apply (requested_uin c header _ _ Hs) in H. destruct H as [H|H].
    - exists a, b. split; [exact H|reflexivity].
    - exists b, a. split; [exact H|apply contributing_sel_sym].
  Qed.

  Lemma rel_contributing_fair a b a' b' : requested c header a b -> requested c header a' b' ->
    length (contributing_sel c header ps sels a b) <= S (length (contributing_sel c header ps sels a' b')).
  Proof.
    intros H1 H2. destruct (rel_oriented a b H1) as [x [y [Hx ->]]], (rel_oriented a' b' H2) as [x' [y' [Hx' ->]]].
    rewrite !rel_contributing_nsel by assumption. apply rel_nsel_fair; assumption.
  Qed.

  Theorem e2ecap_fair_rel :
    (forall a b a' b', requested c header a b -> requested c header a' b' ->
       length (contributing_sel c header ps sels a b) <= S (length (contributing_sel c header ps sels a' b'))) /\
    (forall p q, In p cands -> In q cands -> nsel sels p <= S (nsel sels q)) /\
    (forall i j, In i ids -> In j ids -> Sampler.sel_count isels i <= S (Sampler.sel_count isels j)).
  Proof. split; [exact rel_contributing_fair|]. split; [exact rel_nsel_fair|exact rel_id_fair]. Qed.

  Lemma rel_counter_get k : Sampler.get (cap_counter_sel c header isels) k = Sampler.sel_count isels k.
  Proof.
    unfold cap_counter_sel. fold cands ids. destruct (in_dec Nat.eq_dec k ids) as [Hin|Hn].
    - apply SamplerProofs.get_map_keys. exact Hin.
    - rewrite SamplerProofs.get_notin by (rewrite map_map; cbn [fst]; rewrite map_id; exact Hn).
      symmetry. apply SamplerProofs.sel_count_notin. intros H. apply Hn. apply in_concat in H. destruct H as [isel [H1 H2]].
      destruct rel_isels as [_ F]. rewrite Forall_forall in F. apply (proj1 (F _ H1)). exact H2.
  Qed.

  Theorem e2ecap_counts_rel :
    (forall k, Sampler.get (cap_counter_sel c header isels) k = Sampler.sel_count isels k) /\
    Sampler.reportb isels (cap_counter_sel c header isels) = true /\
    (forall p n, In (p, n) (cap_counts_sel c header isels) <-> In p cands /\ n = nsel sels p) /\
    map fst (cap_counts_sel c header isels) = cands /\
    (forall p, In p cands ->
       nsel sels p = Sampler.sel_count isels (Combos.pidx cands p) /\
       nsel sels p = length (contributing_sel c header ps sels (fst p) (snd p))).
  Proof.
    split; [exact rel_counter_get|]. split.
    { unfold Sampler.reportb. apply forallb_forall. intros k _. apply Nat.eqb_eq. apply rel_counter_get. }
    rewrite (counts_sel_eq c header isels (proj2 rel_isels)). split; [|split].
    - intros p n. rewrite in_map_iff. split.
      + intros [q [E Hq]]. inversion E; subst q n. auto.
      + intros [Hp ->]. exists p. auto.
    - rewrite map_map. apply map_id.
    - intros [a b] Hp. split; [apply rel_nsel; exact Hp|]. symmetry. apply rel_contributing_nsel. exact Hp.
  Qed.
End CapRel.

Lemma cap_sels_sel_pairs c header ps :
  cap_sels c header ps = sel_pairs c header (fst (cap_sampler c header (nbatches c header ps))).
Proof. reflexivity. Qed.

Lemma own_run c header ps :
  e2ecap_core_sel c header ps (fst (cap_sampler c header (nbatches c header ps))) = e2ecap_core c header ps.
Proof. unfold e2ecap_core_sel. rewrite <- cap_sels_sel_pairs. symmetry. apply e2ecap_core_is_pairs. Qed.

Lemma own_sels_ok c header ps : sels_ok c header ps (fst (cap_sampler c header (nbatches c header ps))) = true.
Proof.
  unfold sels_ok. apply andb_true_iff. split.
  - apply Nat.eqb_eq. apply cap_steps_length.
  - unfold cap_ops, cap_sampler. apply derived_valid_runb. reflexivity.
Qed.

Theorem e2ecap_spec c header ps t :
  e2ecap_core c header ps = Some t -> Combos.is_const (g_heur c) = false ->
  let tables := batch_tables c header ps in
  let D := common_den (e2e_batches c header ps) in
  tables <> [] /\ D <> 0%N /\ Forall (fun rows => rows <> [] /\ (N.of_nat (length rows) | D)%N) tables /\
  length (cap_sels c header ps) = length tables /\
  StronglySorted (fun r1 r2 : str * str * Q => Qle (snd r1) (snd r2)) t /\
  NoDup (map fst t) /\
  (forall a b q, In (a, b, q) t <->
     requested c header a b /\ contributing c header ps a b <> [] /\
     q = Qmake (median2 (map (fun rows => Z.of_N (pair_num header D rows a b)) (contributing c header ps a b))) (den_pos D)) /\
  (forall a b, requested c header a b -> requested c header b a) /\
  (forall a b, contributing c header ps a b = contributing c header ps b a /\ incl (contributing c header ps a b) tables) /\
  (forall rows a b, In rows tables ->
     Qeq (Z.of_N (pair_num header D rows a b) # npos D) (cells_cov (column header rows a) (column header rows b)) /\
     is_max_cov (column header rows a) (column header rows b) (cells_cov (column header rows a) (column header rows b))).
Proof.
  intros Hrun Hcov tables D. rewrite <- own_run in Hrun. unfold contributing. rewrite cap_sels_sel_pairs.
  destruct (e2ecap_spec_rel c header ps _ t (own_sels_ok c header ps) Hrun Hcov) as (H1 & H2 & H3 & H4 & H5).
  split; [exact H1|]. split; [exact H2|]. split; [exact H3|]. split; [|exact H5].
  unfold sel_pairs. rewrite map_length. exact H4.
Qed.

Theorem e2ecap_spec_constant c header ps t :
  e2ecap_core c header ps = Some t -> Combos.is_const (g_heur c) = true ->
  batch_tables c header ps <> [] /\
  NoDup (map fst t) /\
  (forall a b q, In (a, b, q) t <->
     In (a, b) (cap_cands c header) /\ (exists sel, In sel (cap_sels c header ps) /\ In (a, b) sel) /\
     q = Qmake 0 (den_pos (common_den (e2e_batches c header ps)))) /\
  (forall a b, CombosProofs.uin (a, b) (cap_cands c header) <-> requested c header a b).
Proof.
  intros Hrun Hc. rewrite <- own_run in Hrun. rewrite cap_sels_sel_pairs.
  destruct (e2ecap_spec_constant_rel c header ps _ t (own_sels_ok c header ps) Hrun Hc) as (H1 & H2 & H3).
  split; [exact H1|]. split; [exact H2|]. split; [exact H3|].
  destruct (rel_facts c header ps _ t Hrun) as (_ & Hs & _).
  intros a b. rewrite cap_cands_eq. apply requested_uin. exact Hs.
Qed.

Theorem e2ecap_fair c header ps t : e2ecap_core c header ps = Some t ->
  (forall a b a' b', requested c header a b -> requested c header a' b' ->
     length (contributing c header ps a b) <= S (length (contributing c header ps a' b'))) /\
  (forall p q, In p (cap_cands c header) -> In q (cap_cands c header) ->
     nsel (cap_sels c header ps) p <= S (nsel (cap_sels c header ps) q)).
Proof.
  intros Hrun. rewrite <- own_run in Hrun. unfold contributing. rewrite cap_sels_sel_pairs.
  destruct (e2ecap_fair_rel c header ps _ t (own_sels_ok c header ps) Hrun) as (H1 & H2 & _).
  split; [exact H1|exact H2].
Qed.

Section OwnHistory.
  Variables (c : config) (header : list str) (ps : list (option (list str))).
  Hypothesis Hnd : NoDup header.

  Let cands := cap_cands c header.
  Let sels := cap_sels c header ps.
  Let ids := cap_ids cands.
  Let nb := nbatches c header ps.
  Let isels := fst (cap_sampler c header nb).
  Let Honce : CombosProofs.once cands := CombosProofs.cands_once header (g_heur c) (g_tro c) (g_label c) Hnd.

  Lemma own_isels_facts : Forall (fun isel => incl isel ids /\ NoDup isel) isels.
  Proof. exact (proj2 (sels_ok_facts c header ps isels Hnd (own_sels_ok c header ps))). Qed.

  Lemma own_sels_incl sel : In sel sels -> incl sel cands.
  Proof.
    intros H. pose proof (cap_sels_ok c header ps) as F. rewrite Forall_forall in F.
    apply (CombosProofs.selected_ok_incl cands (g_cap c)). apply F. exact H.
  Qed.

  (* the counter the run leaves is the one its selections imply (combination_estimation_counts.json) *)
  Lemma cap_counter_eq : 0 < nb -> cap_counter c header ps = cap_counter_sel c header isels.
  Proof.
    intros Hnb. unfold cap_counter, cap_counter_sel, cap_sampler. fold cands ids nb.
    assert (Hids : NoDup ids) by (apply cap_ids_nodup; exact (proj1 Honce)).
    pose proof (cap_steps_keys ids (g_cap c) nb Hids Hnb) as K.
    rewrite (SamplerProofs.al_eta (snd (cap_steps [] ids (g_cap c) nb))) by (rewrite K; exact Hids).
    rewrite K. apply map_ext. intros k. rewrite cap_steps_get. reflexivity.
  Qed.

  Lemma cap_counts_eq : 0 < nb -> cap_counts c header ps = cap_counts_sel c header isels.
  Proof. intros Hnb. unfold cap_counts. rewrite (cap_counter_eq Hnb). reflexivity. Qed.

  Lemma own_least_first i p q : i < nb ->
    In p (nth i sels []) -> In q cands -> ~ In q (nth i sels []) ->
    nsel (firstn i sels) p <= nsel (firstn i sels) q.
  Proof.
    intros Hi Hp Hq Hnq.
    assert (Hpc : In p cands).
    { apply (own_sels_incl (nth i sels [])); [apply nth_In; unfold sels; rewrite cap_sels_length; exact Hi|exact Hp]. }
    unfold sels in *. rewrite cap_sels_select_run in *.
    exact (select_run_least cands (g_cap c) (proj1 Honce) nb [] i p q Hpc Hp Hq Hnq).
  Qed.

  Theorem e2ecap_selections :
    sels = Combos.select_run [] cands (g_cap c) nb /\
    length sels = nb /\
    Forall (fun sel => CombosProofs.selected_ok cands (g_cap c) sel /\ incl sel cands /\ NoDup sel /\
                       ((0 <= g_cap c)%Z -> length sel = Nat.min (length cands) (Z.to_nat (g_cap c)))) sels /\
    SamplerProofs.reach ids (Sampler.get (cap_counter c header ps)) /\
    (forall i p q, i < nb -> In p (nth i sels []) -> In q cands -> ~ In q (nth i sels []) ->
       nsel (firstn i sels) p <= nsel (firstn i sels) q).
  Proof.
    split; [apply cap_sels_select_run|]. split; [apply cap_sels_length|]. split; [|split; [apply cap_steps_reach|exact own_least_first]].
    pose proof (cap_sels_ok c header ps) as F. pose proof own_isels_facts as G.
    apply Forall_forall. intros sel Hsel. rewrite Forall_forall in F, G. pose proof (F sel Hsel) as Hs.
    unfold sels, cap_sels in Hsel. apply in_map_iff in Hsel. destruct Hsel as [isel [<- Hin]]. destruct (G isel Hin) as [G1 G2].
    split; [exact Hs|]. split; [apply (CombosProofs.selected_ok_incl _ _ _ Hs)|].
    split; [exact (proj2 (sel_pairs_facts _ _ G1 G2))|]. intros H0. apply CombosProofs.selected_ok_nonneg; assumption.
  Qed.
End OwnHistory.

Theorem e2ecap_counts c header ps t : e2ecap_core c header ps = Some t ->
  (forall p n, In (p, n) (cap_counts c header ps) <->
     In p (cap_cands c header) /\ n = nsel (cap_sels c header ps) p) /\
  NoDup (map fst (cap_counts c header ps)) /\
  (forall p, In p (cap_cands c header) ->
     Sampler.get (cap_counter c header ps) (Combos.pidx (cap_cands c header) p) = nsel (cap_sels c header ps) p /\
     nsel (cap_sels c header ps) p = length (contributing c header ps (fst p) (snd p))) /\
  SamplerProofs.hist (fst (cap_sampler c header (nbatches c header ps))) (Sampler.get (cap_counter c header ps)).
Proof.
  intros Hrun. rewrite <- own_run in Hrun. unfold contributing. rewrite cap_sels_sel_pairs.
  pose proof (own_sels_ok c header ps) as Hok.
  destruct (rel_facts c header ps _ t Hrun) as (_ & _ & Hnd & _ & Hne & Honce).
  assert (Hnb : 0 < nbatches c header ps).
  { unfold nbatches. destruct (e2e_batches c header ps); [congruence|cbn; lia]. }
  destruct (e2ecap_counts_rel c header ps _ t Hok Hrun) as (G & _ & C1 & C2 & C3).
  rewrite (cap_counts_eq c header ps Hnd Hnb).
  split; [exact C1|]. split; [rewrite C2; exact (proj1 Honce)|]. split.
  - intros p Hp. rewrite (cap_counter_eq c header ps Hnd Hnb), G. destruct (C3 p Hp) as [E1 E2].
    split; [symmetry; exact E1|exact E2].
  - apply cap_steps_hist.
Qed.

(* with the cap at or above the number of candidates (at least one: the label pairs with itself) both fragment tests
   ask the same *)
Lemma cap_config_ok_nonbinding c header :
  (Z.of_nat (length (cap_cands c header)) <= g_cap c)%Z -> cap_config_ok c header = config_ok c header.
Proof.
  intros Hcap. rewrite cap_config_ok_base, config_ok_base. destruct (base_ok c header) eqn:E; [|reflexivity]. cbn [andb].
  destruct (base_ok_spec c header E) as (_ & _ & Hs & _ & Hl).
  pose proof (cands_nonempty c header Hs Hl) as Hne.
  assert (0 < length (cap_cands c header)) by (destruct (cap_cands c header); [congruence|cbn; lia]).
  rewrite (proj2 (Z.leb_le 1 (g_cap c))) by lia. symmetry. apply Z.leb_le. exact Hcap.
Qed.

Theorem cap_nonbinding_eq c header ps :
  (Z.of_nat (length (cap_cands c header)) <= g_cap c)%Z -> e2ecap_core c header ps = e2e_core c header ps.
Proof.
  intros Hcap. unfold e2ecap_core, e2e_core. rewrite (cap_config_ok_nonbinding c header Hcap).
  destruct (config_ok c header); [|reflexivity]. cbn [negb].
  destruct (crashes c ps); [reflexivity|]. destruct (e2e_batches c header ps) eqn:Eb; [reflexivity|]. rewrite <- Eb.
  f_equal. f_equal. rewrite cap_all_rows_ev. apply shuffle_independent; [apply cap_sels_length|].
  pose proof (cap_sels_ok c header ps) as F. eapply Forall_impl; [|exact F].
  intros sel Hsel. rewrite <- cap_cands_eq. apply (CombosProofs.selected_ok_full _ (g_cap c)); assumption.
Qed.

Theorem cap_shuffle_independent c header ps (evl : list (list Combos.pair)) :
  Forall2 (@Permutation _) evl (cap_sels c header ps) ->
  final_table (all_rows_ev c header ps evl) = final_table (cap_all_rows c header ps).
Proof. intros HF. rewrite cap_all_rows_ev. apply all_rows_ev_perm. exact HF. Qed.

Theorem cap_text_run c text :
  e2ecap_run c text = e2ecap_core c (Accept.csv_raw_header text) (map Csv.parse (tl (phys_lines text))).
Proof. reflexivity. Qed.

Theorem cap_wellformed_run c (names : list (list N)) (rows : list (list (list N))) :
  names <> [] -> Forall (none (fun ch => (ch =? COMMA)%N || is_nl ch)) names -> edge_clean (join_with [COMMA] names) ->
  Forall (fun r => r <> [] /\ Forall (none is_nl) r) rows -> Forall (Forall CsvProofs.flen_ok) rows ->
  e2ecap_run c (render_file names rows) = e2ecap_core c names (map Some rows).
Proof.
  intros H1 H2 H3 H4 H5. unfold e2ecap_run. destruct (wellformed_file names rows H1 H2 H3 H4 H5) as [E1 E2].
  rewrite E1, E2. reflexivity.
Qed.

Theorem e2ecap_sel_instance c header ps :
  let isels := fst (cap_sampler c header (nbatches c header ps)) in
  sels_ok c header ps isels = true /\
  e2ecap_core_sel c header ps isels = e2ecap_core c header ps /\
  sel_pairs c header isels = cap_sels c header ps /\
  (forall a b, contributing_sel c header ps (sel_pairs c header isels) a b = contributing c header ps a b) /\
  (forall k, Sampler.sel_count isels k = Sampler.get (cap_counter c header ps) k).
Proof.
  intros isels. split; [apply own_sels_ok|]. split; [apply own_run|]. split; [symmetry; apply cap_sels_sel_pairs|]. split; [reflexivity|].
  intros k. symmetry. apply cap_steps_get.
Qed.
