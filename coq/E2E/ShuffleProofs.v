(* E2E — the two sources of freedom inside mixed_rank_graph do not reach the table:
   the capped sampler (C07, through C06's selected_ok) selects every candidate when the cap is not binding, whatever
   its counter holds; random.shuffle only permutes the evaluated list, and the aggregation is permutation invariant
   (C09's aggregate_perm). *)
From Coq Require Import List NArith ZArith QArith Bool Arith Lia Permutation.
From Outrank Require Import Pipeline.Aggregate Pipeline.AggregateProofs.
From Outrank Require Import Pipeline.RankGraph.
From Outrank Require Pipeline.Stream Pipeline.Sampler Pipeline.Combos Pipeline.CombosProofs.
From Outrank Require Import E2E.Compose E2E.CapCompose E2E.RowsProofs E2E.ComposeProofs.
Import ListNotations.
Local Open Scope nat_scope.

(* cap >= #candidates: any selection the sampler relation allows is the whole candidate list up to order
   (CombosProofs.selected_ok_full); in particular the transcription of prior_combinations_sample, in ANY state of the
   global counter *)
Corollary cap_nonbinding cands cap (s : Sampler.al) : (Z.of_nat (length cands) <= cap)%Z ->
  Permutation (fst (Combos.select s cands cap)) cands.
Proof. intros H. apply (CombosProofs.selected_ok_full cands cap _ H). apply CombosProofs.select_ok. Qed.

(* the rows of one batch when the evaluated list (after sampling and shuffling) is [ev] *)
Definition batch_triplets_ev (c : config) (header : list (list N)) (D : N) (rows : list (list (list N)))
           (ev : list Combos.pair) : list Combos.row :=
  let f := frame_of header rows in
  let scores := if Combos.is_const (g_heur c) then []
                else map (eval_pair (cov_num D) f (g_label c)) ev in
  Combos.build_rows (g_heur c) ev scores.

Lemma batch_triplets_ev_perm c header D rows ev ev' : Permutation ev ev' ->
  Permutation (batch_triplets_ev c header D rows ev) (batch_triplets_ev c header D rows ev').
Proof.
  intros H. unfold batch_triplets_ev, Combos.build_rows. destruct (Combos.is_const (g_heur c)).
  - unfold Combos.constant_rows. apply Permutation_map. exact H.
  - rewrite !triplets_map, !mirror_map. apply Permutation_flat_map. exact H.
Qed.

(* all rows of the run when batch k evaluates the list [nth k evl] *)
Definition all_rows_ev (c : config) (header : list (list N)) (ps : list (option (list (list N))))
           (evl : list (list Combos.pair)) : list Aggregate.row :=
  let bs := e2e_batches c header ps in
  let D := common_den bs in
  flat_map (fun be => map (to_agg header) (batch_triplets_ev c header D (batch_rows ps (fst be)) (snd be))) (combine bs evl).

(* [batch_triplets_ev] and [all_rows_ev] are CapCompose's [batch_triplets_sel] and [cap_all_rows_sel] under the names the
   statements about random.shuffle use *)
Lemma all_rows_ev_sel c header ps evl : all_rows_ev c header ps evl = cap_all_rows_sel c header ps evl.
Proof. reflexivity. Qed.

Lemma flat_map_combine_perm {A B C} (F : A * B -> list C) (R : B -> B -> Prop) :
  (forall a b b', R b b' -> Permutation (F (a, b)) (F (a, b'))) ->
  forall la lb lb', Forall2 R lb lb' -> Permutation (flat_map F (combine la lb)) (flat_map F (combine la lb')).
Proof.
  intros H. induction la as [|a la IH]; intros lb lb' HF; [constructor|].
  destruct HF as [|l l' lb lb' Hp HF]; [constructor|]. cbn [combine flat_map].
  apply Permutation_app; [apply H; exact Hp|apply IH; exact HF].
Qed.

(* random.shuffle: reordering the evaluated list of every batch does not change the table *)
Theorem all_rows_ev_perm c header ps evl evl' : Forall2 (@Permutation _) evl evl' ->
  final_table (all_rows_ev c header ps evl) = final_table (all_rows_ev c header ps evl').
Proof.
  intros HF. apply final_table_perm. unfold all_rows_ev.
  apply (flat_map_combine_perm _ (@Permutation _)); [|exact HF].
  intros a l l' Hp. cbn [fst snd]. apply Permutation_map. apply batch_triplets_ev_perm. exact Hp.
Qed.

Lemma combine_repeat_r {A B} (l : list A) (y : B) : combine l (repeat y (length l)) = map (fun x => (x, y)) l.
Proof. induction l as [|x l IH]; [reflexivity|]. cbn [length repeat combine map]. rewrite IH. reflexivity. Qed.

Lemma Forall2_repeat_r {A B} (R : A -> B -> Prop) y l : Forall (fun x => R x y) l -> Forall2 R l (repeat y (length l)).
Proof. induction 1; cbn [length repeat]; constructor; assumption. Qed.

Lemma all_rows_as_ev c header ps :
  all_rows c header ps = all_rows_ev c header ps (repeat (cands_of c header) (length (e2e_batches c header ps))).
Proof. rewrite all_rows_sel_rows, all_rows_ev_sel, cap_all_rows_sel_rows, combine_repeat_r. reflexivity. Qed.

Theorem shuffle_independent c header ps evl :
  length evl = length (e2e_batches c header ps) ->
  Forall (fun ev => Permutation ev (cands_of c header)) evl ->
  final_table (all_rows_ev c header ps evl) = final_table (all_rows c header ps).
Proof. intros Hl Hf. rewrite all_rows_as_ev, <- Hl. apply all_rows_ev_perm. apply Forall2_repeat_r. exact Hf. Qed.

(* the table of the run, for any sequence of sampler states and any shuffles *)
Theorem sampler_shuffle_independent c header ps (states : list Sampler.al) (evl : list (list Combos.pair)) :
  (Z.of_nat (length (cands_of c header)) <= g_cap c)%Z ->
  length evl = length (e2e_batches c header ps) ->
  Forall2 (fun s ev => Permutation ev (fst (Combos.select s (cands_of c header) (g_cap c)))) states evl ->
  final_table (all_rows_ev c header ps evl) = final_table (all_rows c header ps).
Proof.
  intros Hcap Hl HF. apply shuffle_independent; [exact Hl|]. clear Hl.
  induction HF as [|s ev ss evs Hp _ IH]; [constructor|]. constructor; [|exact IH].
  eapply Permutation_trans; [exact Hp|]. apply cap_nonbinding. exact Hcap.
Qed.
