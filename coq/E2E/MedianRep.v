(* E2E — the median is not changed when every score is recorded the same number of times.
   (The mirror row of a self pair (c, c) carries the same ordered pair, so its score enters the aggregation twice per
   batch; every other ordered pair once.  Since /repo b3d9d15 the candidate list holds every pair once; the lemma is
   stated for any multiplicity m > 0, so the composition does not depend on that.) *)
From Coq Require Import List ZArith Arith Bool Lia Permutation Sorting.Sorted.
From Outrank Require Import Common.Median Pipeline.Aggregate Pipeline.AggregateProofs Pipeline.PerBatch.
Import ListNotations.
Local Open Scope nat_scope.

Definition replicate (m : nat) (l : list Z) : list Z := flat_map (fun z => repeat z m) l.

Theorem median2_replicate m l : 0 < m -> median2 (replicate m l) = median2 l.
Proof. exact (median2_mrep m l). Qed.

(* all scores zero (Constant) *)
Lemma median2_zeros l : Forall (fun z => z = 0%Z) l -> median2 l = 0%Z.
Proof.
  intros H. unfold median2.
  assert (Hs : Forall (fun z => z = 0%Z) (sort l)) by (eapply Permutation_Forall; [symmetry; apply sort_perm|exact H]).
  assert (Hn : forall i, nth i (sort l) 0%Z = 0%Z).
  { intros i. destruct (Nat.lt_ge_cases i (length (sort l))) as [Hi|Hi].
    - rewrite Forall_forall in Hs. apply Hs. apply nth_In. exact Hi.
    - apply nth_overflow. exact Hi. }
  cbv zeta. destruct (Nat.even _); rewrite !Hn; reflexivity.
Qed.
