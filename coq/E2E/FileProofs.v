(* E2E — the text layer: (1) on PHYSICAL lines csv.reader never raises; (2) a file rendered by the model's writer
   from a header and a table of cells without line breaks is read back as exactly that header and that table. *)
From Coq Require Import List NArith Bool Arith Lia.
From Outrank Require Import IO.Str IO.StrProofs.
From Outrank Require IO.Csv IO.CsvProofs IO.Accept.
From Outrank Require Pipeline.Stream.
From Outrank Require Import E2E.Compose E2E.ComposeProofs.
Import ListNotations.
Local Open Scope N_scope.

(* 1. shape of physical lines: a body without CR / LF, then LF or nothing *)

Definition phys_shape (ln : list N) : Prop := exists body, none is_nl body /\ (ln = body ++ [LF] \/ ln = body).

Lemma phys_lines_aux_shape : forall n l cur, (length l <= n)%nat -> none is_nl cur ->
  Forall phys_shape (phys_lines_aux cur l).
Proof.
  assert (Hlast : forall cur, none is_nl cur -> Forall phys_shape (phys_lines_aux cur [])).
  { intros [|c cur'] Hc; [constructor|]. constructor; [|constructor].
    exists (frev (c :: cur')). split; [rewrite frev_rev; apply none_rev; exact Hc|right; reflexivity]. }
  induction n as [|n IH]; intros l cur Hn Hc; (destruct l as [|c r]; [apply Hlast; exact Hc|]); [cbn in Hn; lia|].
  cbn [length] in Hn. cbn [phys_lines_aux].
  assert (Hrest : forall r', (length r' <= n)%nat -> Forall phys_shape (frev (LF :: cur) :: phys_lines_aux [] r')).
  { intros r' Hr'. constructor; [|apply IH; [exact Hr'|reflexivity]].
    exists (rev cur). split; [apply none_rev; exact Hc|left]. rewrite frev_rev. reflexivity. }
  destruct (c =? LF) eqn:E1; [apply Hrest; lia|]. destruct (c =? CR) eqn:E2.
  - destruct r as [|c2 r2]; [apply (Hrest []); cbn; lia|]. cbn [length] in Hn.
    destruct (c2 =? LF); apply Hrest; cbn [length]; lia.
  - apply IH; [lia|]. apply none_cons. split; [|exact Hc]. unfold is_nl. rewrite E1, E2. reflexivity.
Qed.

Lemma phys_lines_shape text : Forall phys_shape (phys_lines text).
Proof. unfold phys_lines. apply (phys_lines_aux_shape (length text)); [lia|reflexivity]. Qed.

(* the reader's state machine stays away from the error state while it sees no line break and no field grows beyond
   csv.field_size_limit() (Csv.field_limit = 131072; Csv.add raises from there on, as CPython's parse_add_char).
   [calmk k s]: not in an end-of-line / error state, and the pending field holds at most k characters *)
Definition calm (s : Csv.pst) : Prop :=
  match Csv.state s with Csv.EatCRNL | Csv.Err => False | _ => True end.
Definition calmk (k : N) (s : Csv.pst) : Prop := calm s /\ Csv.flen s <= k.

Lemma add_below s c next : Csv.flen s < Csv.field_limit ->
  Csv.add s c next = Csv.mk next (c :: Csv.pend s) (Csv.acc s) (Csv.flen s + 1).
Proof. intros H. unfold Csv.add. apply N.leb_gt in H. rewrite H. reflexivity. Qed.

(* by cases on the state and on c being a quote or a comma: a character that is no line break leads to Err only through
   Csv.add at the limit, and to EatCRNL never; the pending field is reset or grows by one *)
Lemma step_calm k s c : calmk k s -> k < Csv.field_limit -> is_nl c = false -> calmk (k + 1) (Csv.step s (Some c)).
Proof.
  destruct s as [st p a n]. unfold calmk, calm. cbn [Csv.state Csv.flen]. intros [Hs Hn] Hk Hc.
  assert (Hlt : n < Csv.field_limit) by lia.
  destruct st; try contradiction; unfold Csv.step, Csv.start_field; cbn [Csv.state]; rewrite ?Hc;
    destruct (c =? QUOTE); destruct (c =? COMMA);
    rewrite ?add_below by exact Hlt; unfold Csv.save, Csv.goto; cbn [Csv.state Csv.flen Csv.pend Csv.acc]; split; try exact I; lia.
Qed.

Lemma run_calm l : forall k s, calmk k s -> none is_nl l -> k + N.of_nat (length l) <= Csv.field_limit ->
  calmk (k + N.of_nat (length l)) (Csv.run s l).
Proof.
  induction l as [|c l IH]; intros k s Hs Hl Hk.
  - cbn [length Csv.run fold_left]. rewrite N.add_0_r. exact Hs.
  - apply none_cons in Hl. destruct Hl as [Hc Hl]. rewrite CsvProofs.run_cons.
    replace (k + N.of_nat (length (c :: l))) with ((k + 1) + N.of_nat (length l)) by (cbn [length]; lia).
    apply IH; [apply step_calm; [exact Hs|cbn [length] in Hk; lia|exact Hc]|exact Hl|cbn [length] in Hk; lia].
Qed.

Lemma parse_not_err line : Csv.state (Csv.step (Csv.run Csv.init line) None) <> Csv.Err -> Csv.parse line <> None.
Proof. intros H. unfold Csv.parse. cbv zeta. destruct (Csv.state _); try discriminate. congruence. Qed.

Lemma calm_eol s : calm s -> Csv.state (Csv.step s None) <> Csv.Err.
Proof.
  destruct s as [st p a n]. unfold calm. cbn [Csv.state]. intros Hs.
  destruct st; try contradiction; unfold Csv.step, Csv.start_field; cbn; discriminate.
Qed.

Lemma calm_lf_eol s : calm s -> Csv.flen s < Csv.field_limit -> Csv.state (Csv.step (Csv.step s (Some LF)) None) <> Csv.Err.
Proof.
  destruct s as [st p a n]. unfold calm. cbn [Csv.state Csv.flen]. intros Hs Hn.
  destruct st; try contradiction; unfold Csv.step, Csv.start_field; cbn [Csv.state is_nl N.eqb LF CR QUOTE COMMA Pos.eqb orb];
    rewrite ?add_below by exact Hn; cbn; discriminate.
Qed.

(* a line is short when it has at most field_limit characters, terminator included: then no field can exceed the limit *)
Definition short_line (ln : list N) : Prop := N.of_nat (length ln) <= Csv.field_limit.

Theorem parse_phys_line ln : phys_shape ln -> short_line ln -> Csv.parse ln <> None.
Proof.
  intros [body [Hb [->| ->]]] Hshort; unfold short_line in Hshort; apply parse_not_err.
  - rewrite app_length in Hshort. cbn [length] in Hshort.
    unfold Csv.run. rewrite fold_left_app. cbn [fold_left].
    destruct (run_calm body 0 Csv.init) as [H1 H2]; [split; [exact I|cbn; lia]|exact Hb|lia|].
    apply calm_lf_eol; [exact H1|fold (Csv.run Csv.init body); lia].
  - destruct (run_calm body 0 Csv.init) as [H1 _]; [split; [exact I|cbn; lia]|exact Hb|lia|]. apply calm_eol. exact H1.
Qed.

(* csv.Error cannot be raised by a physical line of at most 131072 characters (NUL characters are outside the
   transcription of csv.reader): on such a text the model never answers "the task raises" *)
Definition short_lines (text : list N) : Prop := Forall short_line (data_lines text).

Theorem no_csv_error c text : short_lines text -> crashes c (parse_lines text) = false.
Proof.
  intros Hshort. unfold crashes. destruct (existsb _ _) eqn:E; [|reflexivity]. exfalso.
  apply existsb_exists in E. destruct E as [l [Hl E]]. rewrite selected_abs in Hl.
  unfold sel_lines in Hl. apply filter_In in Hl. destruct Hl as [Hl _].
  destruct (in_abs_lines _ _ Hl) as (_ & Hi & _).
  unfold parse_lines in *. rewrite map_length in Hi.
  rewrite (nth_indep _ None (Csv.parse [])) in E by (rewrite map_length; exact Hi).
  rewrite map_nth in E.
  assert (Hin : In (nth (N.to_nat (N.pred (fst l))) (data_lines text) []) (data_lines text)) by (apply nth_In; exact Hi).
  assert (Hs : phys_shape (nth (N.to_nat (N.pred (fst l))) (data_lines text) [])).
  { pose proof (phys_lines_shape text) as F. rewrite Forall_forall in F. apply F.
    assert (Htl : forall (x : list N) L, In x (tl L) -> In x L) by (intros x [|y L] H; [exact H|right; exact H]).
    apply Htl. exact Hin. }
  unfold short_lines in Hshort. rewrite Forall_forall in Hshort.
  apply parse_phys_line in Hs; [|apply Hshort; exact Hin]. destruct (Csv.parse _); [discriminate|congruence].
Qed.

(* 2. a rendered file is read back as its header and its table (C16_csv, C16_csv_physical_lines) *)

Theorem wellformed_file (names : list (list N)) (rows : list (list (list N))) :
  names <> [] ->
  Forall (none (fun ch => (ch =? COMMA) || is_nl ch)) names ->       (* names without ',' / CR / LF *)
  edge_clean (join_with [COMMA] names) ->                              (* header line without surrounding blanks *)
  Forall (fun r => r <> [] /\ Forall (none is_nl) r) rows ->            (* cells without line breaks *)
  Forall (Forall CsvProofs.flen_ok) rows ->                            (* cells of at most csv.field_size_limit() characters *)
  header_of (render_file names rows) = names /\ parse_lines (render_file names rows) = map Some rows.
Proof.
  intros Hne Hnames Hedge Hrows Hlen.
  assert (Hnl : none is_nl (join_with [COMMA] names)).
  { apply none_join; [reflexivity|]. eapply Forall_impl; [|exact Hnames]. apply cell_no_other. }
  unfold header_of, parse_lines, data_lines, Accept.csv_raw_header, render_file.
  rewrite phys_lines_cons by exact Hnl. cbn [hd tl]. split.
  - rewrite strip_ws_lf by exact Hedge. apply split_on_join; [exact Hne|].
    eapply Forall_impl; [|exact Hnames]. apply cell_no_sep.
  - rewrite CsvProofs.csv_physical_lines by (eapply Forall_impl; [|exact Hrows]; intros r [_ H]; exact H).
    rewrite map_map. apply map_ext_in. intros r Hr. rewrite Forall_forall in Hrows. destruct (Hrows r Hr) as [Hr1 _].
    rewrite Forall_forall in Hlen. apply CsvProofs.roundtrip; [exact Hr1|apply Hlen; exact Hr].
Qed.

Corollary wellformed_run c names rows :
  names <> [] -> Forall (none (fun ch => (ch =? COMMA) || is_nl ch)) names -> edge_clean (join_with [COMMA] names) ->
  Forall (fun r => r <> [] /\ Forall (none is_nl) r) rows -> Forall (Forall CsvProofs.flen_ok) rows ->
  e2e_run c (render_file names rows) = e2e_core c names (map Some rows).
Proof. intros H1 H2 H3 H4 H5. unfold e2e_run. destruct (wellformed_file names rows H1 H2 H3 H4 H5) as [-> ->]. reflexivity. Qed.
