(* E2Ecap — non-vacuity: a small file evaluated by vm_compute with a BINDING cap; the hypotheses of the main theorems are
   satisfiable, and the binding cap changes the table. *)
From Coq Require Import List NArith ZArith QArith Bool Arith Lia.
From Outrank Require Pipeline.Sampler Pipeline.Combos.
From Outrank Require Import E2E.Compose E2E.RowsProofs E2E.ComposeProofs E2E.Examples E2E.CapCompose E2E.CapProofs.
Import ListNotations.
Local Open Scope N_scope.

(*  x,label,z,w          three feature columns + label; B = 2: four batches
    a,1,p,u   a,1,p,v    batch 0: x vs label 2/2
    a,1,q,u   b,0,p,u    batch 1: x vs label 1/2
    a,0,p,v   a,0,p,v    batch 2: x vs label 2/2
    b,1,q,u   a,0,q,v    batch 3: x vs label 1/2                                                               *)
Definition cap_text : list N :=
  [120; 44; 108; 97; 98; 101; 108; 44; 122; 44; 119; 10; 97; 44; 49; 44; 112; 44; 117; 10; 97; 44; 49; 44; 112; 44; 118; 10; 97; 44;
   49; 44; 113; 44; 117; 10; 98; 44; 48; 44; 112; 44; 117; 10; 97; 44; 48; 44; 112; 44; 118; 10; 97; 44; 48; 44; 112; 44; 118; 10; 98;
   44; 49; 44; 113; 44; 117; 10; 97; 44; 48; 44; 113; 44; 118; 10].
Definition cap_header := header_of cap_text.
Definition cap_ps := parse_lines cap_text.
Definition nx : list N := [120].
Definition nz : list N := [122].
Definition nw : list N := [119].

(* target-only mode: 4 candidates, cap 3 *)
Definition cfg_t := mkconfig 2 1 s_label Combos.s_True h_maxcov 3.
(* pairwise mode: 10 candidates, cap 2 *)
Definition cfg_p := mkconfig 2 1 s_label s_False h_maxcov 2.
Definition cfg_c := mkconfig 2 1 s_label s_False h_constant 3.

Example ex_cap_binding :
  (Z.of_nat (length (cap_cands cfg_t cap_header)) > g_cap cfg_t)%Z /\
  (Z.of_nat (length (cap_cands cfg_p cap_header)) > g_cap cfg_p)%Z /\
  nbatches cfg_t cap_header cap_ps = 4%nat /\
  e2e_run cfg_t cap_text = None.
Proof. vm_compute. repeat split. Qed.

(* which candidates each batch evaluates: always the three least-evaluated ones, ties in list order *)
Example ex_cap_sels : cap_sels cfg_t cap_header cap_ps =
  [[(nx, s_label); (s_label, s_label); (s_label, nz)];
   [(s_label, nw); (nx, s_label); (s_label, s_label)];
   [(s_label, nz); (s_label, nw); (nx, s_label)];
   [(s_label, s_label); (s_label, nz); (s_label, nw)]].
Proof. vm_compute. reflexivity. Qed.

(* x vs label was evaluated in batches 0, 1, 2: scores 1, 1/2, 1 -> median 1 (all four batches would give 3/4);
   label vs label in batches 0, 1, 3 *)
Example ex_cap_run : e2ecap_run cfg_t cap_text =
  Some [(s_label, s_label, 2 # 4); (s_label, nw, 2 # 4); (nw, s_label, 2 # 4); (nx, s_label, 4 # 4); (s_label, nx, 4 # 4);
        (s_label, nz, 4 # 4); (nz, s_label, 4 # 4)].
Proof. vm_compute. reflexivity. Qed.

Example ex_cap_contributing :
  contributing cfg_t cap_header cap_ps nx s_label =
    [[[[97]; [49]; [112]; [117]]; [[97]; [49]; [112]; [118]]];
     [[[97]; [49]; [113]; [117]]; [[98]; [48]; [112]; [117]]];
     [[[97]; [48]; [112]; [118]]; [[97]; [48]; [112]; [118]]]] /\
  contributing cfg_t cap_header cap_ps s_label nx = contributing cfg_t cap_header cap_ps nx s_label.
Proof. split; [vm_compute; reflexivity|apply contributing_sel_sym]. Qed.

(* the same file with the cap at the number of candidates: the table of E2E/Compose.v, a different one *)
Example ex_cap_changes_table :
  e2ecap_run (mkconfig 2 1 s_label Combos.s_True h_maxcov 4) cap_text = e2e_run (mkconfig 2 1 s_label Combos.s_True h_maxcov 4) cap_text /\
  e2e_run (mkconfig 2 1 s_label Combos.s_True h_maxcov 4) cap_text =
    Some [(s_label, nw, 2 # 4); (nw, s_label, 2 # 4); (nx, s_label, 3 # 4); (s_label, nx, 3 # 4); (s_label, s_label, 3 # 4);
          (s_label, nz, 3 # 4); (nz, s_label, 3 # 4)].
Proof. split; [|vm_compute; reflexivity]. apply cap_nonbinding_eq. vm_compute. discriminate. Qed.

(* the reported counts: every candidate 3 of 4 batches *)
Example ex_cap_counts : cap_counts cfg_t cap_header cap_ps =
  [((nx, s_label), 3%nat); ((s_label, s_label), 3%nat); ((s_label, nz), 3%nat); ((s_label, nw), 3%nat)].
Proof. vm_compute. reflexivity. Qed.

(* pairwise mode, 10 candidates, cap 2, 4 batches: 8 candidates evaluated once, 2 never (they are absent from the table,
   present in the counts with 0) *)
Example ex_cap_pairwise :
  option_map (@length _) (e2ecap_run cfg_p cap_text) = Some 13%nat /\
  cap_sels cfg_p cap_header cap_ps =
    [[(nx, nx); (nx, s_label)]; [(nx, nz); (nx, nw)]; [(s_label, s_label); (s_label, nz)]; [(s_label, nw); (nz, nz)]] /\
  cap_counts cfg_p cap_header cap_ps =
    [((nx, nx), 1%nat); ((nx, s_label), 1%nat); ((nx, nz), 1%nat); ((nx, nw), 1%nat); ((s_label, s_label), 1%nat);
     ((s_label, nz), 1%nat); ((s_label, nw), 1%nat); ((nz, nz), 1%nat); ((nz, nw), 0%nat); ((nw, nw), 0%nat)] /\
  (forall q, ~ In (nz, nw, q) match e2ecap_run cfg_p cap_text with Some t => t | None => [] end).
Proof.
  remember (e2ecap_run cfg_p cap_text) as r eqn:E. vm_compute in E. subst r.
  split; [reflexivity|]. split; [vm_compute; reflexivity|]. split; [vm_compute; reflexivity|].
  intros q H. cbn [In] in H. repeat (destruct H as [H|H]; [discriminate H|]). exact H.
Qed.

(* Constant: each candidate in its listed orientation, counts 2,2,1,... after 4 batches of 3 *)
Example ex_cap_const :
  e2ecap_run cfg_c cap_text =
    Some [(nx, nx, 0 # 4); (nx, s_label, 0 # 4); (nx, nz, 0 # 4); (nx, nw, 0 # 4); (s_label, s_label, 0 # 4); (s_label, nz, 0 # 4);
          (s_label, nw, 0 # 4); (nz, nz, 0 # 4); (nz, nw, 0 # 4); (nw, nw, 0 # 4)] /\
  map snd (cap_counts cfg_c cap_header cap_ps) = [2; 2; 1; 1; 1; 1; 1; 1; 1; 1]%nat.
Proof. vm_compute. split; reflexivity. Qed.

(* the hypotheses of E2Ecap_spec / _fair / _counts are satisfiable with a binding cap *)
Example ex_cap_spec_hypotheses :
  exists t, e2ecap_core cfg_t cap_header cap_ps = Some t /\ Combos.is_const (g_heur cfg_t) = false /\
            (g_cap cfg_t < Z.of_nat (length (cap_cands cfg_t cap_header)))%Z.
Proof.
  exists [(s_label, s_label, 2 # 4); (s_label, nw, 2 # 4); (nw, s_label, 2 # 4); (nx, s_label, 4 # 4); (s_label, nx, 4 # 4);
          (s_label, nz, 4 # 4); (nz, s_label, 4 # 4)].
  split; [vm_compute; reflexivity|]. split; [reflexivity|]. vm_compute. reflexivity.
Qed.

(* cap 0 (nothing is ever evaluated) is outside the fragment *)
Example ex_cap_zero : e2ecap_status (mkconfig 2 1 s_label s_False h_maxcov 0) cap_text = 1.
Proof. vm_compute. reflexivity. Qed.

(* ---- the relational model: selections as input ---- *)
(* candidate ids in target-only mode: 0 = (x,label), 1 = (label,label), 2 = (label,z), 3 = (label,w).
   [ex_tie_sels]: a fair history that breaks the ties of batch 0 differently from sorted() (it starts with 1,2,3);
   [ex_bad_sels]: batch 1 re-evaluates candidate 1 although candidate 3 was never evaluated. *)
Definition ex_step_sels : list (list nat) := [[0; 1; 2]; [3; 0; 1]; [2; 3; 0]; [1; 2; 3]]%nat.
Definition ex_tie_sels : list (list nat) := [[3; 1; 2]; [0; 2; 3]; [1; 0; 3]; [2; 1; 0]]%nat.
Definition ex_bad_sels : list (list nat) := [[0; 1; 2]; [0; 1; 2]; [2; 3; 0]; [1; 2; 3]]%nat.

Example ex_rel_instance :
  fst (cap_sampler cfg_t cap_header (nbatches cfg_t cap_header cap_ps)) = ex_step_sels /\
  sels_ok cfg_t cap_header cap_ps ex_step_sels = true /\
  e2ecap_core_sel cfg_t cap_header cap_ps ex_step_sels = e2ecap_run cfg_t cap_text.
Proof. vm_compute. repeat split. Qed.

(* another tie-breaking: admissible, another table (x vs label now evaluated in batches 1, 2, 3: 1/2, 1, 1/2 -> 1/2), fair counts *)
Example ex_rel_other_ties :
  sels_ok cfg_t cap_header cap_ps ex_tie_sels = true /\
  e2ecap_core_sel cfg_t cap_header cap_ps ex_tie_sels =
    Some [(nx, s_label, 2 # 4); (s_label, nx, 2 # 4); (s_label, nz, 2 # 4); (s_label, nw, 2 # 4); (nz, s_label, 2 # 4);
          (nw, s_label, 2 # 4); (s_label, s_label, 4 # 4)] /\
  map snd (cap_counts_sel cfg_t cap_header ex_tie_sels) = [3; 3; 3; 3]%nat.
Proof. vm_compute. repeat split. Qed.

Example ex_rel_rejected :
  sels_ok cfg_t cap_header cap_ps ex_bad_sels = false /\
  sels_steps cfg_t cap_header cap_ps ex_bad_sels = [true; false; true; true] /\
  sels_ok cfg_t cap_header cap_ps [[0; 1; 2]; [3; 0; 1]; [2; 3; 0]]%nat = false /\          (* one batch short *)
  sels_ok cfg_t cap_header cap_ps [[0; 1]; [2; 3]; [0; 1]; [2; 3]]%nat = false /\          (* fewer than cap *)
  sels_ok cfg_t cap_header cap_ps [[0; 1; 4]; [3; 0; 1]; [2; 3; 0]; [1; 2; 3]]%nat = false.  (* 4 is not a candidate *)
Proof. vm_compute. repeat split. Qed.
