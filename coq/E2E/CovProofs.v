(* E2E — the coverage score of the composed model (E2E/Compose.v) against C05's: the fast maximum, the scaling to a common
   denominator, and the reading on the cells of the two columns. *)
From Coq Require Import List NArith ZArith QArith Bool Arith Lia.
From Outrank Require Import Pipeline.RankGraph Pipeline.RankGraphProofs.
From Outrank Require Import Common.ListFacts E2E.Compose.
Import ListNotations.

Lemma map_repeat {A B} (f : A -> B) x n : map f (repeat x n) = repeat (f x) n.
Proof. induction n as [|n IH]; [reflexivity|]. cbn [repeat map]. rewrite IH. reflexivity. Qed.

Lemma combine_repeat {A B} (x : A) (y : B) n : combine (repeat x n) (repeat y n) = repeat (x, y) n.
Proof. induction n as [|n IH]; [reflexivity|]. cbn [repeat combine]. rewrite IH. reflexivity. Qed.

Lemma distinct_acc_in x : forall l seen, In x (distinct_acc seen l) <-> In x seen \/ In x l.
Proof.
  induction l as [|y l IH]; intros seen; cbn [distinct_acc].
  - cbn. tauto.
  - destruct (existsb (peqb y) seen) eqn:E.
    + rewrite IH. apply existsb_exists in E. destruct E as [z [Hz E]]. apply peqb_spec in E. subst z.
      cbn. split; [tauto|]. intros [H|[H|H]]; auto. subst. auto.
    + rewrite IH. cbn. tauto.
Qed.

Theorem maxfreq_fast_eq l : maxfreq_fast l = maxfreq peqb l.
Proof.
  unfold maxfreq_fast, maxfreq.
  destruct l as [|p l]; [reflexivity|].
  set (L := p :: l).
  assert (HL : L <> []) by discriminate.
  assert (HD : distinct_acc [] L <> []).
  { intros E. assert (H : In p (distinct_acc [] L)) by (apply distinct_acc_in; right; left; reflexivity).
    rewrite E in H. exact H. }
  apply N.le_antisymm.
  - destruct (fold_max_attained peqb L (distinct_acc [] L) HD) as [x [Hx ->]].
    apply (fold_max_ge peqb L L). apply distinct_acc_in in Hx. destruct Hx as [[]|Hx]. exact Hx.
  - destruct (fold_max_attained peqb L L HL) as [x [Hx ->]].
    apply (fold_max_ge peqb L (distinct_acc [] L)). apply distinct_acc_in. right. exact Hx.
Qed.

Lemma maxfreq_repeat p n : (0 < n)%nat -> maxfreq peqb (repeat p n) = N.of_nat n.
Proof.
  intros Hn. unfold maxfreq.
  destruct (fold_max_attained peqb (repeat p n) (repeat p n)) as [x [Hx ->]]; [destruct n; [lia|discriminate]|].
  apply repeat_spec in Hx. subst x. unfold cnt.
  rewrite filter_all by (intros x Hx; apply repeat_spec in Hx; subst x; apply peqb_spec; reflexivity).
  rewrite repeat_length. reflexivity.
Qed.

(* the scaled score is the rational of C05:  cov_num D a b # D == maxcov a b *)

Lemma cov_num_maxcov D (a b : list N) :
  a <> [] -> (N.of_nat (length a) | D)%N -> D <> 0%N ->
  Qeq (Z.of_N (cov_num D a b) # (match D with Npos p => p | N0 => 1 end)) (maxcov a b).
Proof.
  intros Ha [k Hk] HD. unfold cov_num, maxcov, frac. rewrite maxfreq_fast_eq.
  set (m := maxfreq peqb (combine a b)).
  assert (Hn : length a <> 0%nat) by (destruct a; [congruence|discriminate]).
  assert (Hn' : N.of_nat (length a) <> 0%N) by lia.
  assert (Hdiv : (D / N.of_nat (length a) = k)%N) by (rewrite Hk; apply N.div_mul; exact Hn').
  rewrite Hdiv. destruct D as [|p]; [congruence|].
  unfold Qeq. cbn [Qnum Qden]. rewrite Zpos_of_nat by exact Hn.
  assert (E : Z.pos p = (Z.of_N k * Z.of_nat (length a))%Z).
  { change (Z.pos p) with (Z.of_N (N.pos p)). rewrite Hk. rewrite N2Z.inj_mul, nat_N_Z. reflexivity. }
  rewrite E, N2Z.inj_mul. ring.
Qed.

(* the coverage stated on the CELLS (strings), not on codes *)

(* number of rows whose two cells are (u, v) *)
Fixpoint jointS (xs ys : list (list N)) (u v : list N) : N :=
  match xs, ys with
  | x :: xs', y :: ys' => ((if seqb x u && seqb y v then 1 else 0) + jointS xs' ys' u v)%N
  | _, _ => 0%N
  end.

(* q is the largest relative frequency of a joint value of the two columns *)
Definition is_max_cov (xs ys : list (list N)) (q : Q) : Prop :=
  (exists u v, In (u, v) (combine xs ys) /\ Qeq q (frac (jointS xs ys u v) (length xs))) /\
  (forall u v, Qle (frac (jointS xs ys u v) (length xs)) q).

Lemma jointS_map (f g : list N -> N) xs : forall ys u v,
  (forall x, In x xs -> f x = f u -> x = u) -> (forall y, In y ys -> g y = g v -> y = v) ->
  joint (map f xs) (map g ys) (f u) (g v) = jointS xs ys u v.
Proof.
  induction xs as [|x xs IH]; intros ys u v Hf Hg; [reflexivity|].
  destruct ys as [|y ys]; [reflexivity|]. cbn [map joint jointS].
  rewrite IH; [|intros x' Hx'; apply Hf; right; exact Hx'|intros y' Hy'; apply Hg; right; exact Hy']. f_equal.
  destruct (seqb x u) eqn:Ex.
  - apply seqb_eq in Ex. subst x. rewrite N.eqb_refl. cbn [andb].
    destruct (seqb y v) eqn:Ey.
    + apply seqb_eq in Ey. subst y. rewrite N.eqb_refl. reflexivity.
    + destruct (N.eqb_spec (g y) (g v)) as [E|E]; [|reflexivity].
      apply Hg in E; [|left; reflexivity]. subst. rewrite (proj2 (seqb_eq v v) eq_refl) in Ey. discriminate.
  - destruct (N.eqb_spec (f x) (f u)) as [E|E]; [|reflexivity].
    apply Hf in E; [|left; reflexivity]. subst. rewrite (proj2 (seqb_eq u u) eq_refl) in Ex. discriminate.
Qed.

Lemma jointS_notin_l xs : forall ys u v, ~ In u xs -> jointS xs ys u v = 0%N.
Proof.
  induction xs as [|x xs IH]; intros ys u v H; [reflexivity|]. destruct ys as [|y ys]; [reflexivity|].
  cbn [jointS]. rewrite IH by (intros H'; apply H; right; exact H').
  destruct (seqb x u) eqn:E; [|reflexivity]. apply seqb_eq in E. subst. exfalso. apply H. left. reflexivity.
Qed.
Lemma jointS_sym xs : forall ys u v, jointS xs ys u v = jointS ys xs v u.
Proof.
  induction xs as [|x xs IH]; intros [|y ys] u v; try reflexivity. cbn [jointS]. rewrite IH, andb_comm. reflexivity.
Qed.

Lemma jointS_notin_r xs ys u v : ~ In v ys -> jointS xs ys u v = 0%N.
Proof. intros H. rewrite jointS_sym. apply jointS_notin_l. exact H. Qed.

Lemma in_combine_map {A B C D'} (f : A -> C) (g : B -> D') xs : forall ys c d,
  In (c, d) (combine (map f xs) (map g ys)) -> exists x y, In (x, y) (combine xs ys) /\ c = f x /\ d = g y.
Proof.
  induction xs as [|x xs IH]; intros ys c d H; [destruct H|]. destruct ys as [|y ys]; [destruct H|].
  cbn [map combine] in H. destruct H as [H|H].
  - inversion H; subst. exists x, y. split; [left; reflexivity|auto].
  - destruct (IH ys c d H) as [x' [y' [H1 H2]]]. exists x', y'. split; [right; exact H1|exact H2].
Qed.

Definition code_of (l : list (list N)) (x : list N) : N := N.of_nat (index_of x (cats l)).
Lemma codes_map l : codes l = map (code_of l) l.
Proof. reflexivity. Qed.
Lemma code_of_inj l x y : In x l -> In y l -> code_of l x = code_of l y -> x = y.
Proof.
  intros Hx Hy E. unfold code_of in E. apply Nat2N.inj in E.
  eapply index_of_inj; [apply cats_in; exact Hx|apply cats_in; exact Hy|exact E].
Qed.

Definition str_eq_dec : forall a b : list N, {a = b} + {a <> b} := list_eq_dec N.eq_dec.

(* C05_maxcov_exact + C05_codes_inj, transported to the cells *)
Theorem maxcov_cells xs ys : length xs = length ys -> xs <> [] -> is_max_cov xs ys (maxcov (codes xs) (codes ys)).
Proof.
  intros Hlen Hne.
  assert (Hl : length (codes xs) = length (codes ys)) by (rewrite !codes_length; exact Hlen).
  assert (Hn : codes xs <> []) by (intros E; apply Hne; apply length_zero_iff_nil; rewrite <- codes_length, E; reflexivity).
  destruct (maxcov_exact (codes xs) (codes ys) Hl Hn) as (Hex & Hub & Hlo & _).
  rewrite codes_length in *. split.
  - destruct Hex as [c [d [Hin E]]]. rewrite (codes_map xs), (codes_map ys) in Hin.
    destruct (in_combine_map _ _ _ _ _ _ Hin) as [u [v [Huv [-> ->]]]]. exists u, v. split; [exact Huv|].
    rewrite E. rewrite (codes_map xs) at 1. rewrite (codes_map ys) at 1.
    rewrite jointS_map; [reflexivity| |].
    + intros x Hx. apply code_of_inj; [exact Hx|]. apply in_combine_l in Huv. exact Huv.
    + intros y Hy. apply code_of_inj; [exact Hy|]. apply in_combine_r in Huv. exact Huv.
  - intros u v. destruct (in_dec str_eq_dec u xs) as [Hu|Hu].
    + destruct (in_dec str_eq_dec v ys) as [Hv|Hv].
      * rewrite <- (jointS_map (code_of xs) (code_of ys)).
        -- rewrite <- !codes_map. apply Hub.
        -- intros x Hx. apply code_of_inj; assumption.
        -- intros y Hy. apply code_of_inj; assumption.
      * rewrite jointS_notin_r by exact Hv. eapply Qle_trans; [|exact Hlo]. apply frac_le. lia.
    + rewrite jointS_notin_l by exact Hu. eapply Qle_trans; [|exact Hlo]. apply frac_le. lia.
Qed.

(* symmetry: which of the two columns is the conditioning side does not matter for the coverage *)

Lemma cnt_map_inj {A B} (eqa : A -> A -> bool) (eqb' : B -> B -> bool) (f : A -> B) :
  (forall x y, eqb' (f x) (f y) = eqa x y) -> forall x l, cnt eqb' (f x) (map f l) = cnt eqa x l.
Proof.
  intros H x l. unfold cnt. f_equal. induction l as [|y l IH]; [reflexivity|].
  cbn [map filter]. rewrite H. destruct (eqa x y); cbn [length]; rewrite IH; reflexivity.
Qed.

Lemma maxfreq_map_inj {A B} (eqa : A -> A -> bool) (eqb' : B -> B -> bool) (f : A -> B) :
  (forall x y, eqb' (f x) (f y) = eqa x y) -> forall l, maxfreq eqb' (map f l) = maxfreq eqa l.
Proof.
  intros H l. unfold maxfreq.
  assert (G : forall l', fold_right (fun x m => N.max (cnt eqb' x (map f l)) m) 0%N (map f l')
                         = fold_right (fun x m => N.max (cnt eqa x l) m) 0%N l').
  { induction l' as [|y l' IH]; [reflexivity|]. cbn [map fold_right]. rewrite IH, (cnt_map_inj eqa eqb' f H). reflexivity. }
  apply G.
Qed.

Lemma maxfreq_combine_sym (a b : list N) : maxfreq peqb (combine a b) = maxfreq peqb (combine b a).
Proof.
  rewrite (combine_swap a b). symmetry. apply maxfreq_map_inj.
  intros [x1 x2] [y1 y2]. unfold peqb. cbn [fst snd]. apply andb_comm.
Qed.

Lemma cov_num_sym D (a b : list N) : length a = length b -> cov_num D a b = cov_num D b a.
Proof. intros H. unfold cov_num. rewrite !maxfreq_fast_eq, maxfreq_combine_sym, H. reflexivity. Qed.

Lemma is_max_cov_sym xs ys q : length xs = length ys -> is_max_cov xs ys q -> is_max_cov ys xs q.
Proof.
  intros Hl [[u [v [Hin E]]] Hub]. split.
  - exists v, u. split; [rewrite combine_swap; exact (in_map (fun p => (snd p, fst p)) _ _ Hin)|]. rewrite <- Hl, <- jointS_sym. exact E.
  - intros v' u'. rewrite <- Hl, <- jointS_sym. apply Hub.
Qed.

(* two rationals that are both "the maximum" are equal: the spec determines the score *)
Lemma is_max_cov_unique xs ys q1 q2 : is_max_cov xs ys q1 -> is_max_cov xs ys q2 -> Qeq q1 q2.
Proof.
  intros [[u1 [v1 [_ E1]]] H1] [[u2 [v2 [_ E2]]] H2]. apply Qle_antisym.
  - rewrite E1. apply H2.
  - rewrite E2. apply H1.
Qed.

(* ---- the batch score of the model, as a function of the two cell columns only ---- *)

Definition cells_cov (xs ys : list (list N)) : Q := maxcov (codes xs) (codes ys).

Theorem cov_num_cells D xs ys : length xs = length ys -> xs <> [] -> (N.of_nat (length xs) | D)%N -> D <> 0%N ->
  Qeq (Z.of_N (cov_num D (codes xs) (codes ys)) # (match D with Npos p => p | N0 => 1 end)) (cells_cov xs ys)
  /\ is_max_cov xs ys (cells_cov xs ys).
Proof.
  intros Hl Hne Hd HD. split.
  - apply cov_num_maxcov; [|rewrite codes_length; exact Hd|exact HD].
    intros E. apply Hne. apply length_zero_iff_nil. rewrite <- codes_length, E. reflexivity.
  - apply maxcov_cells; assumption.
Qed.
