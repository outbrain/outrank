(* E2E — what the rows of one batch are (C05 + C06 glued), and what Aggregate sees of them. *)
From Coq Require Import List NArith ZArith QArith Bool Arith Lia Permutation Sorting.Sorted.
From Outrank Require Import Common.Median Pipeline.Aggregate Pipeline.AggregateProofs.
From Outrank Require Import Pipeline.RankGraph Pipeline.RankGraphProofs.
From Outrank Require Pipeline.Sampler Pipeline.Combos Pipeline.CombosProofs.
From Outrank Require Import Common.ListFacts E2E.Compose E2E.CapCompose E2E.CovProofs E2E.MedianRep.
Import ListNotations.
Local Open Scope nat_scope.

Notation str := (list N) (only parsing).

(* the two string equalities of the layer models agree *)

Lemma seqb_str_eqb a b : seqb a b = Combos.str_eqb a b.
Proof.
  destruct (seqb a b) eqn:E.
  - apply seqb_eq in E. subst. symmetry. apply CombosProofs.str_eqb_refl.
  - apply seqb_neq in E. symmetry. apply CombosProofs.str_eqb_neq. exact E.
Qed.

Lemma nodup_strb_NoDup l : Combos.nodup_strb l = true -> NoDup l.
Proof.
  induction l as [|x l IH]; intros H; [constructor|]. cbn [Combos.nodup_strb] in H.
  apply andb_true_iff in H. destruct H as [H1 H2]. constructor; [|apply IH; exact H2].
  apply negb_true_iff in H1. apply CombosProofs.memb_false in H1. exact H1.
Qed.

(* columns of a batch *)

(* the cells of column [x] of a batch, read off the rows at the header position of [x] *)
Definition column (header : list str) (rows : list (list str)) (x : str) : list str :=
  map (fun r => nth (N.to_nat (Combos.sidx header x)) r []) rows.

Lemma col_frame_from header rows x : forall j, In x header ->
  col (frame_from j header rows) x = map (fun r => nth (j + N.to_nat (Combos.sidx header x)) r []) rows.
Proof.
  induction header as [|h t IH]; intros j Hin; [destruct Hin|].
  unfold col. cbn [frame_from find fst Combos.sidx]. rewrite seqb_str_eqb, CombosProofs.str_eqb_sym.
  destruct (Combos.str_eqb x h) eqn:E.
  - cbn [snd]. apply map_ext. intros r. rewrite Nat.add_0_r. reflexivity.
  - destruct Hin as [->|Hin]; [rewrite CombosProofs.str_eqb_refl in E; discriminate|].
    specialize (IH (S j) Hin). unfold col in IH. rewrite IH. apply map_ext. intros r.
    rewrite N2Nat.inj_succ. f_equal. lia.
Qed.

Lemma col_frame_of header rows x : In x header -> col (frame_of header rows) x = column header rows x.
Proof. intros H. unfold frame_of. rewrite col_frame_from by exact H. reflexivity. Qed.

Lemma column_length header rows x : length (column header rows x) = length rows.
Proof. apply map_length. Qed.

(* the score of an ordered pair of columns in one batch (numerator over the common denominator D) *)

Definition pair_num (header : list str) (D : N) (rows : list (list str)) (x y : str) : N :=
  cov_num D (codes (column header rows x)) (codes (column header rows y)).

Lemma pair_num_sym header D rows x y : pair_num header D rows x y = pair_num header D rows y x.
Proof. unfold pair_num. apply cov_num_sym. rewrite !codes_length, !column_length. reflexivity. Qed.

(* a batch of n equal rows: every pair of columns has one joint value, so the coverage is 1 (numerator D) *)
Lemma pair_num_equal_rows header D row n a b : 0 < n -> (N.of_nat n | D)%N ->
  pair_num header D (repeat row n) a b = D.
Proof.
  intros Hn [k ->]. unfold pair_num, cov_num, column, codes. cbv zeta.
  rewrite !map_repeat, combine_repeat, maxfreq_fast_eq, maxfreq_repeat by exact Hn.
  rewrite repeat_length, N.div_mul by lia. apply N.mul_comm.
Qed.

(* C05: the candidate is oriented (label = conditioning side), then scored; for the coverage the orientation
   does not change the value *)
Lemma eval_pair_num header D rows lbl a b : In a header -> In b header ->
  eval_pair (cov_num D) (frame_of header rows) lbl (a, b) = pair_num header D rows a b.
Proof.
  intros Ha Hb. unfold eval_pair.
  destruct (orient_same_columns lbl a b) as [E|E]; rewrite E; cbn [fst snd]; rewrite !col_frame_of by assumption.
  - reflexivity.
  - apply pair_num_sym.
Qed.

(* the rows of a batch: C06's build_rows over C05's eval_pair *)

Definition cands_of (c : config) (header : list str) : list Combos.pair :=
  Combos.candidates header (g_heur c) (g_tro c) (g_label c).

(* every ordered pair that gets a row, with its multiplicity: the mirror image, then the candidate *)
Definition mkeys (cands : list Combos.pair) : list (str * str) :=
  flat_map (fun p => [(snd p, fst p); (fst p, snd p)]) cands.

Lemma triplets_map (g : Combos.pair -> N) ev :
  Combos.triplets ev (map g ev) = map (fun p => (fst p, snd p, g p)) ev.
Proof.
  unfold Combos.triplets. induction ev as [|p ev IH]; [reflexivity|]. cbn [map combine fst snd]. rewrite IH. reflexivity.
Qed.

Lemma mirror_map (g : Combos.pair -> N) ev :
  Combos.mirror (map (fun p => (fst p, snd p, g p)) ev) = flat_map (fun p => [(snd p, fst p, g p); (fst p, snd p, g p)]) ev.
Proof. unfold Combos.mirror. induction ev as [|p ev IH]; [reflexivity|]. cbn [map flat_map app]. rewrite IH. reflexivity. Qed.

(* the model's batch rows are C05's rank_rows on the candidates of C06 *)
Lemma batch_triplets_rank_rows c header D rows : Combos.is_const (g_heur c) = false ->
  batch_triplets c header D rows = rank_rows (cov_num D) (frame_of header rows) (g_label c) (cands_of c header).
Proof.
  intros Hc. unfold batch_triplets, Combos.build_rows. rewrite Hc. fold (cands_of c header).
  rewrite triplets_map, mirror_map. reflexivity.
Qed.

Lemma in_mkeys cands a b : In (a, b) (mkeys cands) <-> CombosProofs.uin (a, b) cands.
Proof.
  unfold mkeys, CombosProofs.uin, CombosProofs.swapp. cbn [fst snd]. rewrite in_flat_map. split.
  - intros [[x y] [Hp [H|[H|[]]]]]; cbn [fst snd] in H; inversion H; subst; [right|left]; exact Hp.
  - intros [H|H]; [exists (a, b)|exists (b, a)]; (split; [exact H|]); cbn [fst snd In]; auto.
Qed.

Definition closed (header : list str) (l : list (str * str)) : Prop :=
  forall a b, In (a, b) l -> In a header /\ In b header.

Lemma mkeys_closed header cands : closed header cands -> closed header (mkeys cands).
Proof.
  intros H a b Hin. apply in_mkeys in Hin. destruct Hin as [Hin|Hin]; [apply H; exact Hin|].
  apply H in Hin. cbn in Hin. tauto.
Qed.

(* Aggregate's keys are Combos' index pairs: a row is keyed by [Combos.ixp header] of its two names *)
Lemma sidx_inj header a b : In a header -> In b header -> Combos.sidx header a = Combos.sidx header b -> a = b.
Proof.
  intros Ha Hb E. apply CombosProofs.str_eqb_eq. rewrite <- (CombosProofs.sidx_eqb header a b Ha Hb). apply N.eqb_eq. exact E.
Qed.

Lemma ixp_inj header p q : In (fst p) header -> In (snd p) header -> In (fst q) header -> In (snd q) header ->
  Combos.ixp header p = Combos.ixp header q -> p = q.
Proof.
  destruct p as [a b], q as [a' b']. cbn [fst snd]. intros Ha Hb Ha' Hb' E. unfold Combos.ixp in E. cbn [fst snd] in E.
  inversion E as [[E1 E2]]. apply sidx_inj in E1; [|assumption|assumption]. apply sidx_inj in E2; [|assumption|assumption].
  subst. reflexivity.
Qed.

Lemma rows_cov_ev c header D rows ev :
  Combos.is_const (g_heur c) = false -> closed header ev ->
  map (to_agg header) (batch_triplets_sel c header D rows ev)
  = map (fun xy => (Combos.ixp header xy, Z.of_N (pair_num header D rows (fst xy) (snd xy)))) (mkeys ev).
Proof.
  intros Hc Hcl. unfold batch_triplets_sel, Combos.build_rows. rewrite Hc, triplets_map, mirror_map. unfold mkeys.
  induction ev as [|[a b] l IH]; [reflexivity|].
  cbn [flat_map map app fst snd].
  destruct (Hcl a b (or_introl eq_refl)) as [Ha Hb].
  rewrite eval_pair_num by assumption. unfold to_agg at 1 2. cbn [fst snd]. unfold Combos.ixp at 1 2. cbn [fst snd].
  rewrite (pair_num_sym header D rows b a). f_equal. f_equal.
  apply IH. intros x y H. apply Hcl. right. exact H.
Qed.

Lemma rows_const_ev c header D rows ev : Combos.is_const (g_heur c) = true ->
  map (to_agg header) (batch_triplets_sel c header D rows ev) = map (fun xy => (Combos.ixp header xy, 0%Z)) ev.
Proof.
  intros Hc. unfold batch_triplets_sel, Combos.build_rows. rewrite Hc.
  unfold Combos.constant_rows. rewrite map_map. apply map_ext. intros [a b]. reflexivity.
Qed.

Lemma batch_rows_cov c header D rows :
  Combos.is_const (g_heur c) = false -> closed header (cands_of c header) ->
  map (to_agg header) (batch_triplets c header D rows)
  = map (fun xy => (Combos.ixp header xy, Z.of_N (pair_num header D rows (fst xy) (snd xy)))) (mkeys (cands_of c header)).
Proof. exact (rows_cov_ev c header D rows (cands_of c header)). Qed.

(* what Aggregate's scores_of sees *)

Lemma scores_of_map {A} (K : A -> key) (V : A -> Z) k l :
  scores_of k (map (fun x => (K x, V x)) l) = map V (filter (fun x => key_eqb (K x) k) l).
Proof.
  unfold scores_of. induction l as [|x l IH]; [reflexivity|]. cbn [map filter fst].
  destruct (key_eqb (K x) k); cbn [map snd]; rewrite IH; reflexivity.
Qed.

Lemma scores_of_flat_map {A} k (f : A -> list row) l :
  scores_of k (flat_map f l) = flat_map (fun b => scores_of k (f b)) l.
Proof. induction l as [|x l IH]; [reflexivity|]. cbn [flat_map]. rewrite scores_of_app, IH. reflexivity. Qed.

(* multiplicity of an ordered pair among the rows of one batch (1, or 2 for a self pair, whose mirror is itself) *)
Definition mult (header : list str) (keys : list (str * str)) (k : key) : nat :=
  length (filter (fun xy => key_eqb (Combos.ixp header xy) k) keys).

(* rows of a run given batch by batch: a batch [be : B] has one row per entry xy of its key list [K be], with score
   [V be xy].  [vrows_scores]: if xy occurs m times in the key lists of the batches satisfying [P] and in no other, its
   scores are those of the batches satisfying [P], each m times *)
Section VarKeys.
  Context {B : Type} (header : list str) (K : B -> list (str * str)) (V : B -> str * str -> Z).
  Definition vrows (bes : list B) : list Aggregate.row :=
    flat_map (fun be => map (fun xy => (Combos.ixp header xy, V be xy)) (K be)) bes.

  Lemma vrows_keys bes k :
    In k (map fst (vrows bes)) <-> exists be xy, In be bes /\ In xy (K be) /\ k = Combos.ixp header xy.
  Proof.
    unfold vrows. rewrite in_map_iff. split.
    - intros [r [<- Hr]]. apply in_flat_map in Hr. destruct Hr as [be [Hbe Hr]]. apply in_map_iff in Hr.
      destruct Hr as [xy [<- Hxy]]. exists be, xy. auto.
    - intros [be [xy [Hbe [Hxy ->]]]]. exists (Combos.ixp header xy, V be xy). split; [reflexivity|].
      apply in_flat_map. exists be. split; [exact Hbe|]. apply in_map_iff. exists xy. auto.
  Qed.

  Lemma vrows_scores bes xy (P : B -> bool) m :
    In (fst xy) header -> In (snd xy) header ->
    (forall be, In be bes -> closed header (K be)) ->
    (forall be, In be bes -> mult header (K be) (Combos.ixp header xy) = if P be then m else 0) ->
    scores_of (Combos.ixp header xy) (vrows bes) = replicate m (map (fun be => V be xy) (filter P bes)).
  Proof.
    intros Ha Hb Hcl Hm. unfold vrows. rewrite scores_of_flat_map.
    induction bes as [|be bes IH]; [reflexivity|]. cbn [flat_map filter].
    rewrite IH by (intros; first [apply Hcl | apply Hm]; right; assumption).
    assert (E : scores_of (Combos.ixp header xy) (map (fun xy' => (Combos.ixp header xy', V be xy')) (K be))
                = repeat (V be xy) (mult header (K be) (Combos.ixp header xy))).
    { rewrite scores_of_map. unfold mult. apply map_const_repeat.
      intros xy' H. apply filter_In in H. destruct H as [H1 H2]. apply key_eqb_eq in H2.
      destruct xy as [a b0], xy' as [a' b']. destruct (Hcl be (or_introl eq_refl) _ _ H1).
      apply ixp_inj in H2; cbn [fst snd] in *; try assumption. rewrite H2. reflexivity. }
    rewrite E, (Hm be (or_introl eq_refl)). destruct (P be); [|reflexivity].
    cbn [map]. unfold replicate. cbn [flat_map]. reflexivity.
  Qed.
End VarKeys.

(* ---- multiplicity of an ordered pair among the rows of a batch that evaluated [sel] ---- *)
Lemma mult_pcount header keys p : closed header keys -> In (fst p) header -> In (snd p) header ->
  mult header keys (Combos.ixp header p) = CombosProofs.pcount p keys.
Proof.
  intros Hcl H1 H2. unfold mult, CombosProofs.pcount. f_equal. apply filter_ext_in.
  intros [x y] Hin. destruct (Hcl _ _ Hin). rewrite key_eqb_sym.
  apply (CombosProofs.ixp_pair_eqb header p (x, y)); split; assumption.
Qed.

Lemma pcount_mkeys a b sel :
  CombosProofs.pcount (a, b) (mkeys sel) = CombosProofs.pcount (b, a) sel + CombosProofs.pcount (a, b) sel.
Proof.
  unfold mkeys. induction sel as [|[x y] sel IH]; [reflexivity|].
  cbn [flat_map fst snd app]. rewrite !CombosProofs.pcount_cons, IH.
  assert (E : Combos.pair_eqb (a, b) (y, x) = Combos.pair_eqb (b, a) (x, y)).
  { unfold Combos.pair_eqb. cbn [fst snd]. apply andb_comm. }
  rewrite E. lia.
Qed.

Lemma pcount_nodup p l : NoDup l -> CombosProofs.pcount p l = if Combos.listedb p l then 1 else 0.
Proof.
  induction 1 as [|q l Hq Hl IH]; [reflexivity|]. rewrite CombosProofs.pcount_cons, IH.
  unfold Combos.listedb. cbn [existsb]. fold (Combos.listedb p l).
  destruct (Combos.pair_eqb p q) eqn:E; cbn [orb]; [|reflexivity].
  apply CombosProofs.pair_eqb_eq in E. subst q.
  destruct (Combos.listedb p l) eqn:E2; [|reflexivity]. apply CombosProofs.listedb_In in E2. contradiction.
Qed.

Lemma umemb_listed a b sel : Combos.umemb (a, b) sel = Combos.listedb (a, b) sel || Combos.listedb (b, a) sel.
Proof. apply eq_true_iff_eq. rewrite orb_true_iff, CombosProofs.umemb_uin, !CombosProofs.listedb_In. reflexivity. Qed.

(* a self pair occurs twice among the rows of a batch that selected it (mirror row = same ordered pair),
   any other selected pair once per orientation, an unselected pair never *)
Definition pmult (a b : str) : nat := if Combos.str_eqb a b then 2 else 1.

Lemma pmult_pos a b : 0 < pmult a b.
Proof. unfold pmult. destruct (Combos.str_eqb a b); lia. Qed.

Lemma mult_mkeys_sel header sel a b :
  closed header sel -> CombosProofs.once sel -> In a header -> In b header ->
  mult header (mkeys sel) (Combos.ixp header (a, b)) = if Combos.umemb (a, b) sel then pmult a b else 0.
Proof.
  intros Hcl [Hnd Hor] Ha Hb.
  rewrite (mult_pcount header (mkeys sel) (a, b) (mkeys_closed header sel Hcl) Ha Hb), pcount_mkeys.
  rewrite !pcount_nodup by exact Hnd. rewrite umemb_listed. unfold pmult, Combos.pair, Combos.str in *.
  destruct (Combos.str_eqb a b) eqn:Eab.
  - apply CombosProofs.str_eqb_eq in Eab. subst b. destruct (Combos.listedb (a, a) sel); reflexivity.
  - destruct (Combos.listedb (a, b) sel) eqn:E1, (Combos.listedb (b, a) sel) eqn:E2; cbn [orb]; try reflexivity.
    apply CombosProofs.listedb_In in E1, E2. rewrite (Hor a b E1 E2), CombosProofs.str_eqb_refl in Eab. discriminate.
Qed.


