From Coq Require Import List ZArith QArith.
From Outrank Require Import MI.Subsample.
Import ListNotations.
Open Scope Z_scope.
Set Printing Width 10000000. Set Printing Depth 10000000.
Eval vm_compute in (let Y := [1; 1; 1; 1; 1; 1; 1; 1; 1; 1; 1; 1; 1; 1; 1; 1; 1; 1; 1; 1; 1; 1; 1; 1; 1; 1; 1; 1; 1; 1; 1; 1; 1; 1; 1; 1; 1; 1; 1; 1; 1; 1; 1; 1; 1; 1; 1; 1; 1; 1; 1; 1; 1; 1; 1; 1; 1; 1; 1; 1; 1; 1; 1; 1; 1; 1; 1; 1; 1; 1; 1; 1; 1; 1; 1; 1; 1; 1; 1; 1; 1; 1; 1; 1; 1; 1; 1; 1; 1; 1; 1; 1; 1; 1; 1; 1; 1; 1; 1; 1; 1; 1; 1; 1; 1; 1; 1; 1; 1; 1; 1; 1; 1; 1; 1; 1; 1; 1; 1; 1; 1; 1; 1; 1; 1; 1; 1; 1; 1; 1; 1; 1; 1; 1; 1; 1; 1; 1; 1; 1; 1; 1; 1; 1; 1; 1; 1; 1; 1; 1; 1; 1; 1; 1; 1; 1; 1; 1; 1; 1; 1; 1; 1; 1; 1; 1; 1; 1; 1; 1; 1; 1; 1; 1; 1; 1; 1; 1; 1; 1; 1; 1; 1; 1; 1; 1; 1; 1; 1; 1; 1; 1; 1; 1; 1; 1; 1; 1; 1; 1; 1; 1; 1; 1; 1; 1; 1; 1; 1; 1; 1; 1; 1; 1; 1; 1; 1; 1; 1; 1; 1; 1; 1; 1; 1; 1; 1; 1; 1; 1; 1; 1; 1; 1; 1; 1; 1; 1; 1; 1; 1; 1; 1; 1; 1; 1; 1; 1; 1; 1; 1; 1; 1; 1; 1; 1; 1; 1; 1; 1; 1; 1; 1; 1; 1; 1; 1; 1; 1; 1; 1; 1; 1; 1; 1; 1; 1; 1; 1; 1; 1; 1; 1; 1; 1; 1; 1; 1; 1; 1; 1; 1; 1; 1; 1; 1; 1; 1; 1; 1; 1; 1; 1; 1; 1; 1; 1; 1; 1; 1; 1; 1; 1; 1; 1; 1; 1; 1; 1; 1; 1; 1; 1; 1; 1; 1; 1; 1; 1; 1; 1; 1; 1; 1; 1; 1; 1; 1; 1; 1; 1; 1; 1; 1; 1; 1; 1; 1; 1; 1; 1; 1; 1; 1; 1; 1; 1; 1; 1; 1; 1; 1; 1; 1; 1; 1; 1; 1; 1; 1; 1; 1; 1; 1; 1; 1; 1; 1; 1; 1; 1; 1; 1; 1; 1; 1; 1; 1; 1; 1; 1; 1; 1; 1; 1; 1; 1; 1; 1; 1; 1; 1; 1; 1; 1; 1; 1; 1; 1; 1; 1; 1; 1; 1; 1; 1; 1; 1; 1; 1; 1; 1; 1; 1; 1; 1; 1; 1; 1; 1; 1; 1; 1; 1; 1; 1; 1; 1; 1; 1; 1; 1; 1; 1; 1; 1; 1; 1; 1; 1; 1; 1; 1; 1; 1; 1; 1; 1; 1; 1; 1; 1; 1; 1; 1; 1; 1; 1; 1; 1; 1; 1; 1; 1; 1; 1; 1; 1; 1; 1; 1; 1; 1; 1; 1; 1; 1; 1; 1; 1; 1; 1; 1; 1; 1; 1; 1; 1; 1; 1; 1; 1; 1; 1; 1; 1; 1; 1; 1; 1; 1; 1; 1; 1; 1; 1; 1; 1; 1; 1; 1; 1; 1; 1; 1; 1; 1; 1; 1; 1; 1; 1; 1; 1; 1; 1; 1; 1; 1; 1; 1; 1; 1; 1; 1; 1; 1; 1; 1; 1; 1; 1; 1; 1; 1; 1; 1; 1; 1; 1; 1; 1; 1; 1; 1; 1; 1; 1; 1; 1; 1; 1; 1; 1; 1; 1; 1; 1; 1; 1; 1; 1; 1; 1; 1; 1; 1; 1; 1; 1; 1; 1; 1; 1; 1; 1; 1; 1; 1; 1; 1; 1; 1; 1; 1; 1; 1; 1; 1; 1; 1; 1; 1; 1; 1; 1; 1; 1; 1; 1; 1; 1; 1; 1; 1; 1; 1; 1; 1; 1; 1; 1; 1; 1; 1; 1; 1; 1; 1; 1; 1; 1; 1; 1; 1; 1; 1; 1; 1; 1; 1; 1; 1; 1; 1; 1; 1; 1; 1; 1; 1; 1; 1; 1; 1; 1; 1; 1; 1; 1; 1; 1; 1; 1; 1; 1; 1; 1; 1; 1; 1; 1; 1; 1; 1; 1; 1; 1; 1; 1; 1; 1; 1; 1; 1; 1; 1; 1; 1; 1; 1; 1; 1; 1; 1; 1; 1; 1; 1; 1; 1; 1; 1; 1; 1; 1; 1; 1; 1; 1; 1; 1; 1; 1; 1; 1; 1; 1; 1; 1; 1; 1; 1; 1; 1; 1; 1; 1; 1; 1; 1; 1; 1; 1; 1; 1; 1; 1; 1; 1; 1; 1; 1; 1; 1; 1; 1; 1; 1; 1; 1; 1; 1; 1; 1; 1; 1; 1; 1; 1; 1; 1; 1; 1; 1; 1; 1; 1; 1; 1; 1; 1; 1; 1; 1; 1; 1; 1; 1; 1; 1; 1; 1; 1; 1; 1; 1; 1; 1; 1; 1; 1; 1; 1; 1; 1; 1; 1; 1; 1; 1; 1; 1; 1; 1; 1; 1; 1; 1; 1; 1; 1; 1; 1; 1; 1; 1; 1; 1; 1; 1; 1; 1; 1; 1; 1; 1; 1; 1; 1; 1; 1; 1; 1; 1; 1; 1; 1; 1; 1; 1; 1; 1; 1; 1; 1; 1; 1; 1; 1; 1; 1; 1; 1; 1; 1; 1; 1; 1; 1; 1; 1; 1; 1; 1; 1; 1; 1; 1; 1; 1; 1; 1; 1; 1; 1; 1; 1; 1; 1; 1; 1; 1; 1; 1; 1; 1; 1; 1; 1; 1; 1; 1; 1; 1; 1; 1; 1; 1; 1; 1; 1; 1; 1; 1; 1; 1; 1; 1; 1; 1; 1; 1; 1; 1; 1; 1; 1; 1; 1; 1; 1; 1; 1; 1; 1; 1; 1; 1; 1; 1; 1; 1; 1; 1; 1; 1; 1; 1; 1; 1; 1; 1; 1; 1; 1; 1; 1; 1; 1; 1; 1; 1; 1; 1; 1; 1; 1; 1; 1; 1; 1; 1; 1; 1; 1; 1; 1; 1; 1; 1; 1; 1; 1; 1; 1; 1; 1; 1; 1; 1; 1; 1; 1; 1; 1; 1; 1; 1; 1; 1; 1; 1; 1; 1; 1; 1; 1; 1; 1; 1; 1; 1; 1; 1; 1; 1; 1; 1; 1; 1; 1; 1; 1; 1; 1; 1; 1; 1; 1; 1; 1; 1; 1; 1; 1; 1; 1; 1; 1; 1; 1; 1; 1; 1; 1; 1; 1; 1; 1; 1; 1; 1; 1; 1; 1; 1; 1; 1; 1; 1; 1; 1; 1; 1; 1; 1; 1; 1; 1; 1; 1; 1; 1; 1; 1; 1; 1; 1; 1; 1; 1; 1; 1; 1; 1; 1; 1; 1; 1; 1; 1; 1; 1; 1; 1; 1; 1; 1; 1; 1; 1; 1; 1; 1; 1; 1; 1; 1; 1; 1; 1; 1; 1; 1; 1; 1; 1; 1; 1; 1; 1; 1; 1; 1; 1; 1; 1; 1; 1; 1; 1; 1; 1; 1; 1; 1; 1; 1; 1; 1; 1; 1; 1; 1; 1; 1; 1; 1; 1; 1; 1; 1; 1; 1; 1; 1; 1; 1; 1; 1; 1; 1; 1; 1; 1; 1; 1; 1; 1; 1; 1; 1; 1; 1; 1; 1; 1; 1; 1; 1; 1; 1; 1; 1; 1; 1; 1; 1; 1; 1; 1; 1; 1; 1; 1; 1; 1; 1; 1; 1; 1; 1; 1; 1; 1; 1; 1; 1; 1; 1; 1; 1; 1; 1; 1; 1; 1; 1; 1; 1; 1; 1; 1; 1; 1; 1; 1; 1; 1; 1; 1; 1; 1; 1; 1; 1; 1; 1; 1; 1; 1; 1; 1; 1; 1; 1; 1; 1; 1; 1; 1; 1; 1; 1; 1; 1; 1; 1; 1; 1; 1; 1; 1; 1; 1; 1; 1; 1; 1; 1; 1; 1; 1; 1; 1; 1; 1; 1; 1; 1; 1; 1; 1; 1; 1; 1; 1; 1; 1; 1; 1; 1; 1; 1; 1; 1; 1; 1; 1; 1; 1; 1; 1; 1; 1; 1; 1; 1; 1; 1; 1; 1; 1; 1; 1; 1; 1; 1; 1; 1; 1; 1; 1; 1; 1; 1; 1; 1; 1; 1; 1; 1; 1; 1; 1; 1; 1; 1; 1; 1; 1; 1; 1; 1; 1; 1; 1; 1; 1; 1; 1; 1; 1; 1; 1; 1; 1; 1; 1; 1; 1; 1; 1; 1; 1; 1; 1; 1; 1; 1; 1; 1; 1; 1; 1; 1; 1; 1; 1; 1; 1; 1; 1; 1; 1; 1; 1; 1; 1; 1; 1; 1; 1; 1; 1; 1; 1; 1; 1; 1; 1; 1; 1; 1; 1; 1; 1; 1; 1; 1; 1; 1; 1; 1; 1; 1; 1; 1; 1; 1; 1; 1; 1; 1; 1; 1; 1; 1; 1; 1; 1; 1; 1; 1; 1; 1; 1; 1; 1; 1; 1; 1; 1; 1; 1; 1; 1; 1; 1; 1; 1; 1; 1; 1; 1; 1; 1; 1; 1; 1; 1; 1; 1; 1; 1; 1; 1; 1; 1; 1; 1; 1; 1; 1; 1; 1; 1; 1; 1; 1; 1; 1; 1; 1; 1; 1; 1; 1; 1; 1; 1; 1; 1; 1; 1; 1; 1; 1; 1; 1; 1; 1; 1; 1; 1; 1; 1; 1; 1; 1; 1; 1; 1; 1; 1; 1; 1; 1; 1; 1; 1; 1; 1; 1; 1; 1; 1; 1; 1; 1; 1; 1; 1; 1; 1; 1; 1; 1; 1; 1; 1; 1; 1; 1; 1; 1; 1; 1; 1; 1; 1; 1; 1; 1; 1; 1; 1; 1; 1; 1; 1; 1; 1; 1; 1; 1; 1; 1; 1; 1; 1; 1; 1; 1; 1; 1; 1; 1; 1; 1; 1; 1; 1; 1; 1; 1; 1; 1; 1; 1; 1; 1; 1; 1; 1; 1; 1; 1; 1; 1; 1; 1; 1; 1; 1; 1; 1; 1; 1; 1; 1; 1; 1; 1; 1; 1; 1; 1; 1; 1; 1; 1; 1; 1; 1; 1; 1; 1; 1; 1; 1; 1; 1; 1; 1; 1; 1; 1; 1; 1; 1; 1; 1; 1; 1; 1; 1; 1; 1; 1; 1; 1; 1; 1; 1; 1; 1; 1; 1; 1; 1; 1; 1; 1; 1; 1; 1; 1; 1; 1; 1; 1; 1; 1; 1; 1; 1; 1; 1; 1; 1; 1; 1; 1; 1; 1; 1; 1; 1; 1; 1; 1; 1; 1; 1; 1; 1; 1; 1; 1; 1; 1; 1; 1; 1; 1; 1; 1; 1; 1; 1; 1; 1; 1; 1; 1; 1; 1; 1; 1; 1; 1; 1; 1; 1; 1; 1; 1; 1; 1; 1; 1] in let X := [343; 124; 262; 340; 558; 358; 85; 170; 546; 483; 514; 33; 350; 327; 457; 516; 244; 325; 329; 294; 506; 273; 523; 193; 121; 473; 388; 337; 38; 450; 561; 428; 39; 454; 297; 477; 142; 374; 123; 432; 567; 108; 18; 73; 14; 519; 432; 257; 109; 115; 85; 238; 491; 521; 93; 154; 92; 394; 314; 501; 468; 537; 117; 90; 438; 370; 274; 124; 267; 439; 381; 74; 69; 151; 488; 405; 292; 182; 87; 546; 569; 331; 404; 165; 334; 567; 252; 367; 368; 384; 368; 157; 285; 314; 248; 448; 416; 16; 52; 370; 90; 323; 436; 430; 113; 321; 221; 437; 572; 408; 230; 52; 232; 419; 346; 6; 3; 523; 123; 343; 17; 429; 416; 185; 149; 393; 69; 257; 500; 455; 190; 319; 226; 255; 504; 353; 449; 73; 424; 29; 11; 517; 421; 524; 517; 147; 407; 75; 222; 541; 467; 539; 25; 413; 331; 307; 539; 204; 194; 316; 62; 214; 252; 118; 463; 21; 507; 211; 131; 180; 494; 371; 111; 192; 551; 32; 323; 176; 169; 315; 472; 403; 105; 14; 336; 368; 491; 106; 262; 253; 86; 329; 443; 191; 245; 502; 456; 60; 560; 60; 258; 86; 1; 3; 259; 474; 76; 193; 447; 438; 256; 338; 267; 231; 236; 135; 349; 108; 392; 285; 300; 121; 186; 127; 328; 203; 427; 473; 379; 374; 345; 413; 43; 146; 33; 110; 100; 68; 268; 145; 345; 341; 289; 393; 201; 220; 137; 286; 317; 313; 6; 314; 328; 455; 2; 270; 64; 7; 537; 332; 545; 337; 131; 335; 474; 195; 135; 401; 101; 126; 173; 209; 235; 184; 465; 216; 204; 247; 474; 95; 308; 322; 248; 387; 216; 487; 431; 31; 371; 437; 514; 246; 531; 464; 102; 360; 353; 15; 352; 227; 565; 97; 459; 532; 566; 428; 186; 268; 118; 555; 497; 161; 334; 48; 389; 82; 454; 191; 135; 96; 81; 332; 314; 407; 378; 485; 575; 271; 265; 416; 435; 494; 534; 54; 397; 403; 200; 147; 211; 81; 475; 263; 204; 249; 293; 448; 107; 78; 256; 176; 322; 543; 222; 53; 486; 46; 544; 552; 549; 361; 529; 240; 156; 312; 263; 26; 476; 18; 477; 211; 215; 332; 132; 571; 569; 539; 139; 371; 2; 98; 436; 166; 460; 348; 429; 307; 364; 103; 476; 101; 192; 99; 401; 179; 154; 531; 357; 214; 272; 455; 333; 92; 160; 422; 335; 97; 404; 305; 361; 193; 131; 110; 172; 430; 123; 560; 105; 92; 380; 85; 502; 286; 352; 187; 238; 128; 96; 309; 278; 44; 139; 319; 15; 426; 226; 322; 129; 12; 377; 309; 481; 246; 224; 155; 344; 8; 394; 559; 131; 235; 141; 295; 576; 489; 413; 293; 208; 137; 185; 233; 385; 113; 310; 485; 377; 370; 167; 90; 330; 54; 398; 158; 145; 531; 479; 145; 43; 315; 561; 19; 255; 272; 108; 109; 209; 191; 119; 277; 397; 73; 407; 572; 145; 522; 198; 348; 2; 351; 519; 514; 335; 17; 507; 561; 315; 149; 305; 266; 225; 357; 155; 513; 38; 296; 432; 289; 398; 535; 380; 64; 184; 271; 216; 511; 342; 96; 205; 311; 224; 203; 147; 38; 61; 314; 55; 279; 285; 164; 489; 2; 326; 80; 266; 535; 6; 331; 547; 179; 545; 23; 489; 431; 188; 549; 461; 419; 86; 235; 170; 296; 553; 417; 524; 370; 242; 508; 205; 103; 167; 133; 494; 63; 47; 196; 562; 102; 435; 215; 420; 259; 66; 343; 534; 483; 277; 84; 561; 109; 307; 22; 435; 503; 305; 56; 411; 246; 176; 419; 160; 554; 138; 73; 501; 109; 428; 372; 211; 201; 314; 24; 312; 351; 116; 155; 180; 191; 534; 131; 389; 113; 547; 373; 523; 499; 199; 286; 316; 452; 306; 37; 328; 441; 455; 549; 96; 262; 54; 272; 443; 192; 15; 221; 5; 397; 204; 62; 150; 229; 134; 1; 570; 332; 497; 305; 340; 157; 68; 40; 509; 313; 388; 8; 519; 502; 119; 366; 104; 560; 42; 239; 276; 17; 419; 64; 291; 249; 163; 302; 462; 261; 314; 419; 546; 308; 316; 287; 453; 291; 563; 283; 341; 251; 376; 338; 283; 237; 346; 49; 547; 101; 544; 317; 344; 415; 268; 97; 366; 280; 481; 368; 219; 221; 6; 402; 128; 73; 0; 38; 545; 270; 219; 436; 311; 54; 255; 281; 429; 337; 434; 430; 470; 25; 483; 78; 496; 181; 363; 351; 551; 128; 5; 71; 439; 526; 392; 452; 234; 508; 523; 451; 36; 125; 249; 128; 481; 454; 46; 13; 280; 392; 184; 148; 188; 436; 13; 475; 544; 268; 572; 246; 168; 92; 280; 139; 485; 298; 10; 348; 336; 36; 512; 302; 241; 475; 101; 187; 219; 405; 179; 118; 179; 423; 95; 153; 182; 565; 548; 284; 75; 302; 372; 372; 318; 237; 168; 425; 383; 178; 471; 470; 293; 405; 121; 121; 451; 143; 381; 155; 471; 177; 296; 288; 341; 9; 568; 231; 228; 516; 163; 468; 364; 170; 220; 470; 570; 358; 552; 352; 259; 215; 143; 85; 514; 106; 533; 471; 138; 560; 393; 575; 341; 178; 89; 65; 378; 235; 79; 98; 140; 380; 260; 16; 172; 491; 342; 479; 532; 40; 119; 88; 419; 19; 326; 195; 186; 55; 525; 126; 463; 237; 383; 145; 420; 389; 119; 168; 388; 285; 194; 61; 40; 363; 334; 357; 252; 508; 469; 369; 128; 438; 12; 286; 539; 294; 332; 524; 26; 210; 464; 23; 299; 77; 29; 336; 233; 478; 476; 33; 151; 239; 264; 472; 320; 512; 78; 213; 542; 454; 20; 82; 147; 428; 161; 297; 335; 248; 438; 141; 110; 231; 38; 511; 281; 405; 87; 248; 398; 121; 569; 95; 289; 572; 202; 447; 451; 63; 288; 70; 475; 571; 146; 340; 302; 475; 270; 387; 310; 358; 535; 417; 44; 432; 15; 516; 128; 312; 406; 27; 376; 490; 500; 124; 422; 86; 369; 110; 185; 30; 393; 539; 210; 484; 468; 236; 58; 111; 444; 495; 570; 51; 47; 166; 121; 23; 475; 100; 228; 576; 203; 162; 115; 141; 167; 513; 53; 566; 318; 281; 139; 548; 147; 182; 63; 364; 68; 377; 290; 338; 271; 276; 378; 395; 85; 225; 552; 244; 483; 306; 249; 140; 307; 255; 26; 143; 529; 422; 240; 532; 522; 386; 30; 530; 315; 196; 165; 147; 416; 103; 15; 567; 54; 216; 420; 411; 83; 267; 150; 259; 237; 486; 5; 385; 504; 336; 319; 162; 510; 168; 343; 390; 273; 420; 371; 196; 391; 337; 466; 568; 532; 461; 265; 68; 174; 132; 207; 300; 518; 153; 395; 305; 496; 525; 195; 248; 497; 500; 351; 568; 386; 202; 513; 296; 549; 574; 509; 427; 106; 542; 75; 79; 494; 38; 113; 84; 516; 79; 338; 488; 553; 459; 391; 93; 453; 240; 29; 467; 353; 170; 29; 489; 486; 78; 394; 525; 321; 510; 148; 439; 61; 483; 464; 99; 143; 174; 407; 461; 457; 254; 539; 345; 381; 283; 211; 122; 227; 156; 572; 33; 340; 563; 536; 332; 156; 342; 148; 171; 569; 162; 449; 77; 514; 269; 309; 365; 286; 245; 77; 333; 429; 362; 140; 89; 142; 363; 321; 295; 481; 298; 505; 73; 8; 127; 564; 302; 441; 97; 291; 225; 212; 408; 318; 36; 445; 147; 279; 523; 418; 396; 239; 255; 254; 415; 316; 260; 357; 306; 242; 319; 369; 4; 513; 89; 373; 264; 79; 264; 156; 125; 297; 40; 295; 448; 353; 37; 71; 437; 528; 309; 27; 62; 322; 527; 28; 25; 414; 5; 126; 301; 41; 63; 250; 117; 157; 512; 37; 375; 168; 129; 114; 88; 361; 232; 506; 81; 85; 317; 157; 349; 402; 212; 171; 419; 203; 505; 534; 512; 385; 18; 453; 94; 354; 392; 566; 197; 264; 195; 388; 352; 359; 576; 7; 489; 33; 259; 308; 153; 563; 60; 145; 105; 335; 450; 346; 520; 114; 339; 467; 273; 232; 458; 279; 362; 490; 423; 338; 450; 515; 190; 90; 40; 492; 334; 1; 153; 357; 288; 296; 66; 194; 104; 72; 345; 438; 228; 155; 141; 92; 2; 435; 108; 541; 33; 517; 301; 553; 457; 239; 153; 558; 292; 300; 82; 112; 398; 477; 555; 485; 542; 251; 497; 448; 11; 521; 220; 313; 297; 90; 437; 223; 103; 156; 160; 376; 230; 12; 346; 108; 526; 313; 260; 358; 38; 403; 433; 92; 447; 407; 98; 541; 473; 367; 164; 123; 566; 6; 372; 469; 349; 72; 554; 513; 71; 27; 250; 315; 161; 153; 233; 570; 216; 357; 71; 280; 294; 261; 226; 336; 58; 513; 507; 535; 179; 463; 12; 246; 412; 155; 287; 123; 85; 205; 257; 56; 410; 375; 379; 349; 356; 208; 47; 305; 99; 490; 4; 3; 493; 8; 106; 380; 6; 388; 513; 542; 231; 492; 547; 343; 241; 160; 510; 121; 320; 197; 9; 146; 201; 30; 77; 255; 154; 192; 266; 409; 54; 273; 73; 384; 109; 467; 87; 248; 145; 378; 398; 64; 139; 290; 548; 206; 485; 529; 551; 388; 84; 570; 305; 481; 54; 380; 215; 421; 184; 177; 57; 127; 470; 561; 215; 270; 121; 140; 491; 99; 392; 381; 500; 336; 227; 531; 470; 85; 429; 517; 451; 508; 474; 356; 93; 135; 298; 300; 199; 382; 160; 353; 112; 527; 399; 456; 242; 507; 97; 297; 59; 18; 84; 166; 286; 67; 213; 448; 85; 546; 481; 145; 43; 235; 295; 381; 22; 366; 464; 149; 250; 280; 330; 486; 240; 80; 569; 379; 134; 356; 569; 181; 286; 368; 498; 343; 547; 423; 281; 464; 479; 45; 192; 281; 576; 232; 408; 428; 409; 312; 382; 489; 393; 53; 411; 352; 319; 65; 413; 409; 166; 217; 130; 359; 568; 271; 541; 498; 90; 190; 51; 102; 159; 331; 338; 539; 114; 229; 474; 330; 303; 238; 332; 22; 127; 105; 268; 324; 150; 26; 460; 422; 367; 179; 148; 319; 409; 64; 193; 235; 570; 22; 429; 532; 272; 565; 513; 214; 127; 264; 475; 183; 36; 477; 114; 277; 515; 32; 100; 333; 437; 416; 265; 286; 295; 550; 574; 70; 309; 455; 424; 18; 232; 438; 374; 351; 486; 137; 157; 449; 300; 450; 442; 495; 485; 108; 464; 481; 411; 232; 50; 87; 571; 251; 104; 211; 556; 1; 251; 234; 78; 153; 255; 362; 79; 88; 526; 332; 299; 480; 308; 420; 530; 374; 132; 388; 536; 43; 315; 16] in let k := (Y, X, (2676803 # 8388608)%Q, false) in let rows_ok := C04_check k ([1; 1; 1; 1; 1; 1; 1; 1; 1; 1; 1; 1; 1; 1; 1; 1; 1; 1; 1; 1; 1; 1; 1; 1; 1; 1; 1; 1; 1; 1; 1; 1; 1; 1; 1; 1; 1; 1; 1; 1; 1; 1; 1; 1; 1; 1; 1; 1; 1; 1; 1; 1; 1; 1; 1; 1; 1; 1; 1; 1; 1; 1; 1; 1; 1; 1; 1; 1; 1; 1; 1; 1; 1; 1; 1; 1; 1; 1; 1; 1; 1; 1; 1; 1; 1; 1; 1; 1; 1; 1; 1; 1; 1; 1; 1; 1; 1; 1; 1; 1; 1; 1; 1; 1; 1; 1; 1; 1; 1; 1; 1; 1; 1; 1; 1; 1; 1; 1; 1; 1; 1; 1; 1; 1; 1; 1; 1; 1; 1; 1; 1; 1; 1; 1; 1; 1; 1; 1; 1; 1; 1; 1; 1; 1; 1; 1; 1; 1; 1; 1; 1; 1; 1; 1; 1; 1; 1; 1; 1; 1; 1; 1; 1; 1; 1; 1; 1; 1; 1; 1; 1; 1; 1; 1; 1; 1; 1; 1; 1; 1; 1; 1; 1; 1; 1; 1; 1; 1; 1; 1; 1; 1; 1; 1; 1; 1; 1; 1; 1; 1; 1; 1; 1; 1; 1; 1; 1; 1; 1; 1; 1; 1; 1; 1; 1; 1; 1; 1; 1; 1; 1; 1; 1; 1; 1; 1; 1; 1; 1; 1; 1; 1; 1; 1; 1; 1; 1; 1; 1; 1; 1; 1; 1; 1; 1; 1; 1; 1; 1; 1; 1; 1; 1; 1; 1; 1; 1; 1; 1; 1; 1; 1; 1; 1; 1; 1; 1; 1; 1; 1; 1; 1; 1; 1; 1; 1; 1; 1; 1; 1; 1; 1; 1; 1; 1; 1; 1; 1; 1; 1; 1; 1; 1; 1; 1; 1; 1; 1; 1; 1; 1; 1; 1; 1; 1; 1; 1; 1; 1; 1; 1; 1; 1; 1; 1; 1; 1; 1; 1; 1; 1; 1; 1; 1; 1; 1; 1; 1; 1; 1; 1; 1; 1; 1; 1; 1; 1; 1; 1; 1; 1; 1; 1; 1; 1; 1; 1; 1; 1; 1; 1; 1; 1; 1; 1; 1; 1; 1; 1; 1; 1; 1; 1; 1; 1; 1; 1; 1; 1; 1; 1; 1; 1; 1; 1; 1; 1; 1; 1; 1; 1; 1; 1; 1; 1; 1; 1; 1; 1; 1; 1; 1; 1; 1; 1; 1; 1; 1; 1; 1; 1; 1; 1; 1; 1; 1; 1; 1; 1; 1; 1; 1; 1; 1; 1; 1; 1; 1; 1; 1; 1; 1; 1; 1; 1; 1; 1; 1; 1; 1; 1; 1; 1; 1; 1; 1; 1; 1; 1; 1; 1; 1; 1; 1; 1; 1; 1; 1; 1; 1; 1; 1; 1; 1; 1; 1; 1; 1; 1; 1; 1; 1; 1; 1; 1; 1; 1; 1; 1; 1; 1; 1; 1; 1; 1; 1; 1; 1; 1; 1; 1; 1; 1; 1; 1; 1; 1; 1; 1; 1; 1; 1; 1; 1; 1; 1; 1; 1; 1; 1; 1; 1; 1; 1; 1; 1; 1; 1; 1; 1; 1; 1; 1; 1; 1; 1; 1; 1; 1; 1; 1; 1; 1; 1; 1; 1; 1; 1; 1; 1; 1; 1; 1; 1; 1; 1; 1; 1; 1; 1; 1; 1; 1; 1; 1; 1; 1; 1; 1; 1; 1; 1; 1; 1; 1; 1; 1; 1; 1; 1; 1; 1; 1; 1; 1; 1; 1; 1; 1; 1; 1; 1; 1; 1; 1; 1; 1; 1; 1; 1; 1; 1; 1; 1; 1; 1; 1; 1; 1; 1; 1; 1; 1; 1; 1; 1; 1; 1; 1; 1; 1; 1; 1; 1; 1; 1; 1; 1; 1; 1; 1; 1; 1; 1; 1; 1; 1; 1; 1; 1; 1; 1; 1; 1; 1; 1; 1; 1; 1; 1; 1; 1; 1; 1; 1; 1; 1; 1; 1; 1; 1; 1; 1; 1; 1; 1; 1; 1; 1; 1; 1; 1; 1; 1; 1; 1; 1; 1; 1; 1; 1; 1; 1; 1; 1; 1; 1; 1; 1; 1; 1; 1; 1; 1; 1; 1; 1; 1; 1; 1; 1; 1; 1; 1; 1; 1; 1; 1; 1; 1; 1; 1; 1; 1; 1; 1; 1; 1; 1; 1; 1; 1; 1; 1; 1; 1; 1; 1; 1; 1; 1; 1; 1; 1; 1; 1; 1; 1; 1; 1; 1; 1; 1; 1; 1; 1; 1; 1; 1; 1; 1; 1; 1; 1; 1; 1; 1; 1; 1; 1; 1; 1; 1; 1; 1; 1; 1; 1; 1; 1; 1; 1; 1; 1; 1; 1; 1; 1; 1; 1; 1; 1; 1; 1; 1; 1; 1; 1; 1; 1; 1; 1; 1; 1; 1; 1; 1; 1; 1; 1; 1; 1; 1; 1; 1; 1; 1; 1; 1; 1; 1; 1; 1; 1; 1; 1; 1; 1; 1; 1; 1; 1; 1; 1; 1; 1; 1; 1; 1; 1; 1; 1; 1; 1; 1; 1; 1; 1; 1; 1; 1; 1; 1; 1; 1; 1; 1; 1; 1; 1; 1; 1; 1; 1; 1; 1; 1; 1; 1; 1; 1; 1; 1; 1; 1; 1; 1; 1; 1; 1; 1; 1; 1; 1; 1; 1; 1; 1; 1; 1; 1; 1; 1; 1; 1; 1; 1; 1; 1; 1; 1; 1; 1; 1; 1; 1; 1; 1; 1; 1; 1; 1; 1; 1; 1; 1; 1; 1; 1; 1; 1; 1; 1; 1; 1; 1; 1; 1; 1; 1; 1; 1; 1; 1; 1; 1; 1; 1; 1; 1; 1; 1; 1; 1; 1; 1; 1; 1; 1; 1; 1; 1; 1; 1; 1; 1; 1; 1; 1; 1; 1; 1; 1; 1; 1; 1; 1; 1; 1; 1; 1; 1; 1; 1; 1; 1; 1; 1; 1; 1; 1; 1; 1; 1; 1; 1; 1; 1; 1; 1; 1; 1; 1; 1; 1; 1; 1; 1; 1; 1; 1; 1; 1; 1; 1; 1; 1; 1; 1; 1; 1; 1; 1; 1; 1; 1; 1; 1; 1; 1; 1; 1; 1; 1; 1; 1; 1; 1; 1; 1; 1; 1; 1; 1; 1; 1; 1; 1; 1; 1; 1; 1; 1; 1; 1; 1; 1; 1; 1; 1; 1; 1; 1; 1; 1; 1; 1; 1; 1; 1; 1; 1; 1; 1; 1; 1; 1; 1; 1; 1; 1; 1; 1; 1; 1; 1; 1; 1; 1; 1; 1; 1; 1; 1; 1; 1; 1; 1; 1; 1; 1; 1; 1; 1; 1; 1; 1; 1; 1; 1; 1; 1; 1; 1; 1; 1; 1; 1; 1; 1; 1; 1; 1; 1; 1; 1; 1; 1; 1; 1; 1; 1; 1; 1; 1; 1; 1; 1; 1; 1; 1; 1; 1; 1; 1; 1; 1; 1; 1; 1; 1; 1; 1; 1; 1; 1; 1; 1; 1; 1; 1; 1; 1; 1; 1; 1; 1; 1; 1; 1; 1; 1; 1; 1; 1; 1; 1; 1; 1; 1; 1; 1; 1; 1; 1; 1; 1; 1; 1; 1; 1; 1; 1; 1; 1; 1; 1; 1; 1; 1; 1; 1; 1; 1; 1; 1; 1; 1; 1; 1; 1; 1; 1; 1; 1; 1; 1; 1; 1; 1; 1; 1; 1; 1; 1; 1; 1; 1; 1; 1; 1; 1; 1; 1; 1; 1; 1; 1; 1; 1; 1; 1; 1; 1; 1; 1; 1; 1; 1; 1; 1; 1; 1; 1; 1; 1; 1; 1; 1; 1; 1; 1; 1; 1; 1; 1; 1; 1; 1; 1; 1; 1; 1; 1; 1; 1; 1; 1; 1; 1; 1; 1; 1; 1; 1; 1; 1; 1; 1; 1; 1; 1; 1; 1; 1; 1; 1; 1; 1; 1; 1; 1; 1; 1; 1; 1; 1; 1; 1; 1; 1; 1; 1; 1; 1; 1; 1; 1; 1; 1; 1; 1; 1; 1; 1; 1; 1; 1; 1; 1; 1; 1; 1; 1; 1; 1; 1; 1; 1; 1; 1; 1; 1; 1; 1; 1; 1; 1; 1; 1; 1; 1; 1; 1; 1; 1; 1; 1; 1; 1; 1; 1; 1; 1; 1; 1; 1; 1; 1; 1; 1; 1; 1; 1; 1; 1; 1; 1; 1; 1; 1; 1; 1; 1; 1; 1; 1; 1; 1; 1; 1; 1; 1; 1; 1; 1; 1; 1; 1; 1; 1; 1; 1; 1; 1; 1; 1; 1; 1; 1; 1; 1; 1; 1; 1; 1; 1; 1; 1; 1; 1; 1; 1; 1; 1; 1; 1; 1; 1; 1; 1; 1; 1; 1; 1; 1; 1; 1; 1; 1; 1; 1; 1; 1; 1; 1; 1; 1; 1; 1; 1; 1; 1; 1; 1; 1; 1; 1; 1; 1; 1; 1; 1; 1; 1; 1; 1; 1; 1; 1; 1; 1; 1; 1; 1; 1; 1; 1; 1; 1; 1; 1; 1; 1; 1; 1; 1; 1; 1; 1; 1; 1; 1; 1; 1; 1; 1; 1; 1; 1; 1; 1; 1; 1; 1; 1; 1; 1; 1; 1; 1; 1; 1; 1; 1; 1; 1; 1; 1; 1; 1; 1; 1; 1; 1; 1; 1; 1; 1; 1; 1; 1; 1; 1; 1; 1; 1; 1; 1; 1; 1; 1; 1; 1; 1; 1; 1; 1; 1; 1; 1; 1; 1; 1; 1; 1; 1; 1; 1; 1; 1; 1; 1; 1; 1; 1; 1; 1; 1; 1; 1; 1; 1; 1; 1; 1; 1; 1; 1; 1; 1; 1; 1; 1; 1; 1; 1; 1; 1; 1; 1; 1; 1; 1; 1; 1; 1; 1; 1; 1; 1; 1; 1; 1; 1; 1; 1; 1; 1; 1; 1; 1; 1; 1; 1; 1; 1; 1; 1; 1; 1; 1; 1; 1; 1; 1; 1; 1; 1; 1; 1; 1; 1; 1; 1; 1; 1; 1; 1; 1; 1; 1; 1; 1; 1; 1; 1; 1; 1; 1; 1; 1; 1; 1; 1; 1; 1; 1; 1; 1; 1; 1; 1; 1; 1; 1; 1; 1; 1; 1; 1; 1; 1; 1; 1; 1; 1; 1; 1; 1; 1; 1; 1; 1; 1; 1; 1; 1; 1; 1; 1; 1; 1; 1; 1; 1; 1; 1; 1; 1; 1; 1; 1; 1; 1; 1; 1; 1; 1; 1; 1; 1; 1; 1; 1; 1; 1; 1; 1; 1; 1; 1; 1; 1; 1; 1; 1; 1; 1; 1; 1; 1; 1; 1; 1; 1; 1; 1; 1; 1; 1; 1; 1; 1; 1; 1; 1; 1; 1; 1; 1; 1; 1; 1; 1; 1; 1; 1; 1; 1; 1; 1; 1; 1; 1; 1; 1; 1; 1; 1; 1; 1; 1], [343; 124; 262; 340; 558; 358; 85; 170; 546; 483; 514; 33; 350; 327; 457; 516; 244; 325; 329; 294; 506; 273; 523; 193; 121; 473; 388; 337; 38; 450; 561; 428; 39; 454; 297; 477; 142; 374; 123; 432; 567; 108; 18; 73; 14; 519; 432; 257; 109; 115; 85; 238; 491; 521; 93; 154; 92; 394; 314; 501; 468; 537; 117; 90; 438; 370; 274; 124; 267; 439; 381; 74; 69; 151; 488; 405; 292; 182; 87; 546; 569; 331; 404; 165; 334; 567; 252; 367; 368; 384; 368; 157; 285; 314; 248; 448; 416; 16; 52; 370; 90; 323; 436; 430; 113; 321; 221; 437; 572; 408; 230; 52; 232; 419; 346; 6; 3; 523; 123; 343; 17; 429; 416; 185; 149; 393; 69; 257; 500; 455; 190; 319; 226; 255; 504; 353; 449; 73; 424; 29; 11; 517; 421; 524; 517; 147; 407; 75; 222; 541; 467; 539; 25; 413; 331; 307; 539; 204; 194; 316; 62; 214; 252; 118; 463; 21; 507; 211; 131; 180; 494; 371; 111; 192; 551; 32; 323; 176; 169; 315; 472; 403; 105; 14; 336; 368; 491; 106; 262; 253; 86; 329; 443; 191; 245; 502; 456; 60; 560; 60; 258; 86; 1; 3; 259; 474; 76; 193; 447; 438; 256; 338; 267; 231; 236; 135; 349; 108; 392; 285; 300; 121; 186; 127; 328; 203; 427; 473; 379; 374; 345; 413; 43; 146; 33; 110; 100; 68; 268; 145; 345; 341; 289; 393; 201; 220; 137; 286; 317; 313; 6; 314; 328; 455; 2; 270; 64; 7; 537; 332; 545; 337; 131; 335; 474; 195; 135; 401; 101; 126; 173; 209; 235; 184; 465; 216; 204; 247; 474; 95; 308; 322; 248; 387; 216; 487; 431; 31; 371; 437; 514; 246; 531; 464; 102; 360; 353; 15; 352; 227; 565; 97; 459; 532; 566; 428; 186; 268; 118; 555; 497; 161; 334; 48; 389; 82; 454; 191; 135; 96; 81; 332; 314; 407; 378; 485; 575; 271; 265; 416; 435; 494; 534; 54; 397; 403; 200; 147; 211; 81; 475; 263; 204; 249; 293; 448; 107; 78; 256; 176; 322; 543; 222; 53; 486; 46; 544; 552; 549; 361; 529; 240; 156; 312; 263; 26; 476; 18; 477; 211; 215; 332; 132; 571; 569; 539; 139; 371; 2; 98; 436; 166; 460; 348; 429; 307; 364; 103; 476; 101; 192; 99; 401; 179; 154; 531; 357; 214; 272; 455; 333; 92; 160; 422; 335; 97; 404; 305; 361; 193; 131; 110; 172; 430; 123; 560; 105; 92; 380; 85; 502; 286; 352; 187; 238; 128; 96; 309; 278; 44; 139; 319; 15; 426; 226; 322; 129; 12; 377; 309; 481; 246; 224; 155; 344; 8; 394; 559; 131; 235; 141; 295; 576; 489; 413; 293; 208; 137; 185; 233; 385; 113; 310; 485; 377; 370; 167; 90; 330; 54; 398; 158; 145; 531; 479; 145; 43; 315; 561; 19; 255; 272; 108; 109; 209; 191; 119; 277; 397; 73; 407; 572; 145; 522; 198; 348; 2; 351; 519; 514; 335; 17; 507; 561; 315; 149; 305; 266; 225; 357; 155; 513; 38; 296; 432; 289; 398; 535; 380; 64; 184; 271; 216; 511; 342; 96; 205; 311; 224; 203; 147; 38; 61; 314; 55; 279; 285; 164; 489; 2; 326; 80; 266; 535; 6; 331; 547; 179; 545; 23; 489; 431; 188; 549; 461; 419; 86; 235; 170; 296; 553; 417; 524; 370; 242; 508; 205; 103; 167; 133; 494; 63; 47; 196; 562; 102; 435; 215; 420; 259; 66; 343; 534; 483; 277; 84; 561; 109; 307; 22; 435; 503; 305; 56; 411; 246; 176; 419; 160; 554; 138; 73; 501; 109; 428; 372; 211; 201; 314; 24; 312; 351; 116; 155; 180; 191; 534; 131; 389; 113; 547; 373; 523; 499; 199; 286; 316; 452; 306; 37; 328; 441; 455; 549; 96; 262; 54; 272; 443; 192; 15; 221; 5; 397; 204; 62; 150; 229; 134; 1; 570; 332; 497; 305; 340; 157; 68; 40; 509; 313; 388; 8; 519; 502; 119; 366; 104; 560; 42; 239; 276; 17; 419; 64; 291; 249; 163; 302; 462; 261; 314; 419; 546; 308; 316; 287; 453; 291; 563; 283; 341; 251; 376; 338; 283; 237; 346; 49; 547; 101; 544; 317; 344; 415; 268; 97; 366; 280; 481; 368; 219; 221; 6; 402; 128; 73; 0; 38; 545; 270; 219; 436; 311; 54; 255; 281; 429; 337; 434; 430; 470; 25; 483; 78; 496; 181; 363; 351; 551; 128; 5; 71; 439; 526; 392; 452; 234; 508; 523; 451; 36; 125; 249; 128; 481; 454; 46; 13; 280; 392; 184; 148; 188; 436; 13; 475; 544; 268; 572; 246; 168; 92; 280; 139; 485; 298; 10; 348; 336; 36; 512; 302; 241; 475; 101; 187; 219; 405; 179; 118; 179; 423; 95; 153; 182; 565; 548; 284; 75; 302; 372; 372; 318; 237; 168; 425; 383; 178; 471; 470; 293; 405; 121; 121; 451; 143; 381; 155; 471; 177; 296; 288; 341; 9; 568; 231; 228; 516; 163; 468; 364; 170; 220; 470; 570; 358; 552; 352; 259; 215; 143; 85; 514; 106; 533; 471; 138; 560; 393; 575; 341; 178; 89; 65; 378; 235; 79; 98; 140; 380; 260; 16; 172; 491; 342; 479; 532; 40; 119; 88; 419; 19; 326; 195; 186; 55; 525; 126; 463; 237; 383; 145; 420; 389; 119; 168; 388; 285; 194; 61; 40; 363; 334; 357; 252; 508; 469; 369; 128; 438; 12; 286; 539; 294; 332; 524; 26; 210; 464; 23; 299; 77; 29; 336; 233; 478; 476; 33; 151; 239; 264; 472; 320; 512; 78; 213; 542; 454; 20; 82; 147; 428; 161; 297; 335; 248; 438; 141; 110; 231; 38; 511; 281; 405; 87; 248; 398; 121; 569; 95; 289; 572; 202; 447; 451; 63; 288; 70; 475; 571; 146; 340; 302; 475; 270; 387; 310; 358; 535; 417; 44; 432; 15; 516; 128; 312; 406; 27; 376; 490; 500; 124; 422; 86; 369; 110; 185; 30; 393; 539; 210; 484; 468; 236; 58; 111; 444; 495; 570; 51; 47; 166; 121; 23; 475; 100; 228; 576; 203; 162; 115; 141; 167; 513; 53; 566; 318; 281; 139; 548; 147; 182; 63; 364; 68; 377; 290; 338; 271; 276; 378; 395; 85; 225; 552; 244; 483; 306; 249; 140; 307; 255; 26; 143; 529; 422; 240; 532; 522; 386; 30; 530; 315; 196; 165; 147; 416; 103; 15; 567; 54; 216; 420; 411; 83; 267; 150; 259; 237; 486; 5; 385; 504; 336; 319; 162; 510; 168; 343; 390; 273; 420; 371; 196; 391; 337; 466; 568; 532; 461; 265; 68; 174; 132; 207; 300; 518; 153; 395; 305; 496; 525; 195; 248; 497; 500; 351; 568; 386; 202; 513; 296; 549; 574; 509; 427; 106; 542; 75; 79; 494; 38; 113; 84; 516; 79; 338; 488; 553; 459; 391; 93; 453; 240; 29; 467; 353; 170; 29; 489; 486; 78; 394; 525; 321; 510; 148; 439; 61; 483; 464; 99; 143; 174; 407; 461; 457; 254; 539; 345; 381; 283; 211; 122; 227; 156; 572; 33; 340; 563; 536; 332; 156; 342; 148; 171; 569; 162; 449; 77; 514; 269; 309; 365; 286; 245; 77; 333; 429; 362; 140; 89; 142; 363; 321; 295; 481; 298; 505; 73; 8; 127; 564; 302; 441; 97; 291; 225; 212; 408; 318; 36; 445; 147; 279; 523; 418; 396; 239; 255; 254; 415; 316; 260; 357; 306; 242; 319; 369; 4; 513; 89; 373; 264; 79; 264; 156; 125; 297; 40; 295; 448; 353; 37; 71; 437; 528; 309; 27; 62; 322; 527; 28; 25; 414; 5; 126; 301; 41; 63; 250; 117; 157; 512; 37; 375; 168; 129; 114; 88; 361; 232; 506; 81; 85; 317; 157; 349; 402; 212; 171; 419; 203; 505; 534; 512; 385; 18; 453; 94; 354; 392; 566; 197; 264; 195; 388; 352; 359; 576; 7; 489; 33; 259; 308; 153; 563; 60; 145; 105; 335; 450; 346; 520; 114; 339; 467; 273; 232; 458; 279; 362; 490; 423; 338; 450; 515; 190; 90; 40; 492; 334; 1; 153; 357; 288; 296; 66; 194; 104; 72; 345; 438; 228; 155; 141; 92; 2; 435; 108; 541; 33; 517; 301; 553; 457; 239; 153; 558; 292; 300; 82; 112; 398; 477; 555; 485; 542; 251; 497; 448; 11; 521; 220; 313; 297; 90; 437; 223; 103; 156; 160; 376; 230; 12; 346; 108; 526; 313; 260; 358; 38; 403; 433; 92; 447; 407; 98; 541; 473; 367; 164; 123; 566; 6; 372; 469; 349; 72; 554; 513; 71; 27; 250; 315; 161; 153; 233; 570; 216; 357; 71; 280; 294; 261; 226; 336; 58; 513; 507; 535; 179; 463; 12; 246; 412; 155; 287; 123; 85; 205; 257; 56; 410; 375; 379; 349; 356; 208; 47; 305; 99; 490; 4; 3; 493; 8; 106; 380; 6; 388; 513; 542; 231; 492; 547; 343; 241; 160; 510; 121; 320; 197; 9; 146; 201; 30; 77; 255; 154; 192; 266; 409; 54; 273; 73; 384; 109; 467; 87; 248; 145; 378; 398; 64; 139; 290; 548; 206; 485; 529; 551; 388; 84; 570; 305; 481; 54; 380; 215; 421; 184; 177; 57; 127; 470; 561; 215; 270; 121; 140; 491; 99; 392; 381; 500; 336; 227; 531; 470; 85; 429; 517; 451; 508; 474; 356; 93; 135; 298; 300; 199; 382; 160; 353; 112; 527; 399; 456; 242; 507; 97; 297; 59; 18; 84; 166; 286; 67; 213; 448; 85; 546; 481; 145; 43; 235; 295; 381; 22; 366; 464; 149; 250; 280; 330; 486; 240; 80; 569; 379; 134; 356; 569; 181; 286; 368; 498; 343; 547; 423; 281; 464; 479; 45; 192; 281; 576; 232; 408; 428; 409; 312; 382; 489; 393; 53; 411; 352; 319; 65; 413; 409; 166; 217; 130; 359; 568; 271; 541; 498; 90; 190; 51; 102; 159; 331; 338; 539; 114; 229; 474; 330; 303; 238; 332; 22; 127; 105; 268; 324; 150; 26; 460; 422; 367; 179; 148; 319; 409; 64; 193; 235; 570; 22; 429; 532; 272; 565; 513; 214; 127; 264; 475; 183; 36; 477; 114; 277; 515; 32; 100; 333; 437; 416; 265; 286; 295; 550; 574; 70; 309; 455; 424; 18; 232; 438; 374; 351; 486; 137; 157; 449; 300; 450; 442; 495; 485; 108; 464; 481; 411; 232; 50; 87; 571; 251; 104; 211; 556; 1; 251; 234; 78; 153; 255; 362; 79; 88; 526; 332; 299; 480; 308; 420; 530; 374; 132; 388; 536; 43; 315; 16]) in (C04_model k, rows_ok, outside_hyp k [1; 1; 1; 1; 1; 1; 1; 1; 1; 1; 1; 1; 1; 1; 1; 1; 1; 1; 1; 1; 1; 1; 1; 1; 1; 1; 1; 1; 1; 1; 1; 1; 1; 1; 1; 1; 1; 1; 1; 1; 1; 1; 1; 1; 1; 1; 1; 1; 1; 1; 1; 1; 1; 1; 1; 1; 1; 1; 1; 1; 1; 1; 1; 1; 1; 1; 1; 1; 1; 1; 1; 1; 1; 1; 1; 1; 1; 1; 1; 1; 1; 1; 1; 1; 1; 1; 1; 1; 1; 1; 1; 1; 1; 1; 1; 1; 1; 1; 1; 1; 1; 1; 1; 1; 1; 1; 1; 1; 1; 1; 1; 1; 1; 1; 1; 1; 1; 1; 1; 1; 1; 1; 1; 1; 1; 1; 1; 1; 1; 1; 1; 1; 1; 1; 1; 1; 1; 1; 1; 1; 1; 1; 1; 1; 1; 1; 1; 1; 1; 1; 1; 1; 1; 1; 1; 1; 1; 1; 1; 1; 1; 1; 1; 1; 1; 1; 1; 1; 1; 1; 1; 1; 1; 1; 1; 1; 1; 1; 1; 1; 1; 1; 1; 1; 1; 1; 1; 1; 1; 1; 1; 1; 1; 1; 1; 1; 1; 1; 1; 1; 1; 1; 1; 1; 1; 1; 1; 1; 1; 1; 1; 1; 1; 1; 1; 1; 1; 1; 1; 1; 1; 1; 1; 1; 1; 1; 1; 1; 1; 1; 1; 1; 1; 1; 1; 1; 1; 1; 1; 1; 1; 1; 1; 1; 1; 1; 1; 1; 1; 1; 1; 1; 1; 1; 1; 1; 1; 1; 1; 1; 1; 1; 1; 1; 1; 1; 1; 1; 1; 1; 1; 1; 1; 1; 1; 1; 1; 1; 1; 1; 1; 1; 1; 1; 1; 1; 1; 1; 1; 1; 1; 1; 1; 1; 1; 1; 1; 1; 1; 1; 1; 1; 1; 1; 1; 1; 1; 1; 1; 1; 1; 1; 1; 1; 1; 1; 1; 1; 1; 1; 1; 1; 1; 1; 1; 1; 1; 1; 1; 1; 1; 1; 1; 1; 1; 1; 1; 1; 1; 1; 1; 1; 1; 1; 1; 1; 1; 1; 1; 1; 1; 1; 1; 1; 1; 1; 1; 1; 1; 1; 1; 1; 1; 1; 1; 1; 1; 1; 1; 1; 1; 1; 1; 1; 1; 1; 1; 1; 1; 1; 1; 1; 1; 1; 1; 1; 1; 1; 1; 1; 1; 1; 1; 1; 1; 1; 1; 1; 1; 1; 1; 1; 1; 1; 1; 1; 1; 1; 1; 1; 1; 1; 1; 1; 1; 1; 1; 1; 1; 1; 1; 1; 1; 1; 1; 1; 1; 1; 1; 1; 1; 1; 1; 1; 1; 1; 1; 1; 1; 1; 1; 1; 1; 1; 1; 1; 1; 1; 1; 1; 1; 1; 1; 1; 1; 1; 1; 1; 1; 1; 1; 1; 1; 1; 1; 1; 1; 1; 1; 1; 1; 1; 1; 1; 1; 1; 1; 1; 1; 1; 1; 1; 1; 1; 1; 1; 1; 1; 1; 1; 1; 1; 1; 1; 1; 1; 1; 1; 1; 1; 1; 1; 1; 1; 1; 1; 1; 1; 1; 1; 1; 1; 1; 1; 1; 1; 1; 1; 1; 1; 1; 1; 1; 1; 1; 1; 1; 1; 1; 1; 1; 1; 1; 1; 1; 1; 1; 1; 1; 1; 1; 1; 1; 1; 1; 1; 1; 1; 1; 1; 1; 1; 1; 1; 1; 1; 1; 1; 1; 1; 1; 1; 1; 1; 1; 1; 1; 1; 1; 1; 1; 1; 1; 1; 1; 1; 1; 1; 1; 1; 1; 1; 1; 1; 1; 1; 1; 1; 1; 1; 1; 1; 1; 1; 1; 1; 1; 1; 1; 1; 1; 1; 1; 1; 1; 1; 1; 1; 1; 1; 1; 1; 1; 1; 1; 1; 1; 1; 1; 1; 1; 1; 1; 1; 1; 1; 1; 1; 1; 1; 1; 1; 1; 1; 1; 1; 1; 1; 1; 1; 1; 1; 1; 1; 1; 1; 1; 1; 1; 1; 1; 1; 1; 1; 1; 1; 1; 1; 1; 1; 1; 1; 1; 1; 1; 1; 1; 1; 1; 1; 1; 1; 1; 1; 1; 1; 1; 1; 1; 1; 1; 1; 1; 1; 1; 1; 1; 1; 1; 1; 1; 1; 1; 1; 1; 1; 1; 1; 1; 1; 1; 1; 1; 1; 1; 1; 1; 1; 1; 1; 1; 1; 1; 1; 1; 1; 1; 1; 1; 1; 1; 1; 1; 1; 1; 1; 1; 1; 1; 1; 1; 1; 1; 1; 1; 1; 1; 1; 1; 1; 1; 1; 1; 1; 1; 1; 1; 1; 1; 1; 1; 1; 1; 1; 1; 1; 1; 1; 1; 1; 1; 1; 1; 1; 1; 1; 1; 1; 1; 1; 1; 1; 1; 1; 1; 1; 1; 1; 1; 1; 1; 1; 1; 1; 1; 1; 1; 1; 1; 1; 1; 1; 1; 1; 1; 1; 1; 1; 1; 1; 1; 1; 1; 1; 1; 1; 1; 1; 1; 1; 1; 1; 1; 1; 1; 1; 1; 1; 1; 1; 1; 1; 1; 1; 1; 1; 1; 1; 1; 1; 1; 1; 1; 1; 1; 1; 1; 1; 1; 1; 1; 1; 1; 1; 1; 1; 1; 1; 1; 1; 1; 1; 1; 1; 1; 1; 1; 1; 1; 1; 1; 1; 1; 1; 1; 1; 1; 1; 1; 1; 1; 1; 1; 1; 1; 1; 1; 1; 1; 1; 1; 1; 1; 1; 1; 1; 1; 1; 1; 1; 1; 1; 1; 1; 1; 1; 1; 1; 1; 1; 1; 1; 1; 1; 1; 1; 1; 1; 1; 1; 1; 1; 1; 1; 1; 1; 1; 1; 1; 1; 1; 1; 1; 1; 1; 1; 1; 1; 1; 1; 1; 1; 1; 1; 1; 1; 1; 1; 1; 1; 1; 1; 1; 1; 1; 1; 1; 1; 1; 1; 1; 1; 1; 1; 1; 1; 1; 1; 1; 1; 1; 1; 1; 1; 1; 1; 1; 1; 1; 1; 1; 1; 1; 1; 1; 1; 1; 1; 1; 1; 1; 1; 1; 1; 1; 1; 1; 1; 1; 1; 1; 1; 1; 1; 1; 1; 1; 1; 1; 1; 1; 1; 1; 1; 1; 1; 1; 1; 1; 1; 1; 1; 1; 1; 1; 1; 1; 1; 1; 1; 1; 1; 1; 1; 1; 1; 1; 1; 1; 1; 1; 1; 1; 1; 1; 1; 1; 1; 1; 1; 1; 1; 1; 1; 1; 1; 1; 1; 1; 1; 1; 1; 1; 1; 1; 1; 1; 1; 1; 1; 1; 1; 1; 1; 1; 1; 1; 1; 1; 1; 1; 1; 1; 1; 1; 1; 1; 1; 1; 1; 1; 1; 1; 1; 1; 1; 1; 1; 1; 1; 1; 1; 1; 1; 1; 1; 1; 1; 1; 1; 1; 1; 1; 1; 1; 1; 1; 1; 1; 1; 1; 1; 1; 1; 1; 1; 1; 1; 1; 1; 1; 1; 1; 1; 1; 1; 1; 1; 1; 1; 1; 1; 1; 1; 1; 1; 1; 1; 1; 1; 1; 1; 1; 1; 1; 1; 1; 1; 1; 1; 1; 1; 1; 1; 1; 1; 1; 1; 1; 1; 1; 1; 1; 1; 1; 1; 1; 1; 1; 1; 1; 1; 1; 1; 1; 1; 1; 1; 1; 1; 1; 1; 1; 1; 1; 1; 1; 1; 1; 1; 1; 1; 1; 1; 1; 1; 1; 1; 1; 1; 1; 1; 1; 1; 1; 1; 1; 1; 1; 1; 1; 1; 1; 1; 1; 1; 1; 1; 1; 1; 1; 1; 1; 1; 1; 1; 1; 1; 1; 1; 1; 1; 1; 1; 1; 1; 1; 1; 1; 1; 1; 1; 1; 1; 1; 1; 1; 1; 1; 1; 1; 1; 1; 1; 1; 1; 1; 1; 1; 1; 1; 1; 1; 1; 1; 1; 1; 1; 1; 1; 1; 1; 1; 1; 1; 1; 1; 1; 1; 1; 1; 1; 1; 1; 1; 1; 1; 1; 1; 1; 1; 1; 1; 1; 1; 1; 1; 1; 1; 1; 1; 1; 1; 1; 1; 1; 1; 1; 1; 1; 1; 1; 1; 1; 1; 1; 1; 1; 1; 1; 1; 1; 1; 1; 1; 1; 1; 1; 1; 1; 1; 1; 1; 1; 1; 1; 1; 1; 1; 1; 1; 1; 1; 1; 1; 1; 1; 1; 1; 1; 1; 1; 1; 1; 1; 1; 1; 1; 1; 1; 1; 1; 1; 1; 1; 1; 1; 1; 1; 1; 1; 1; 1; 1; 1; 1; 1; 1; 1; 1; 1; 1; 1; 1; 1; 1; 1; 1; 1; 1; 1; 1; 1; 1; 1; 1; 1; 1; 1; 1; 1; 1; 1; 1; 1; 1; 1; 1; 1; 1; 1; 1; 1; 1; 1; 1; 1; 1; 1; 1; 1; 1; 1; 1; 1; 1; 1; 1; 1; 1; 1; 1; 1; 1; 1; 1; 1; 1; 1; 1; 1; 1; 1; 1; 1; 1; 1; 1; 1; 1; 1; 1; 1; 1; 1; 1; 1; 1; 1; 1; 1; 1; 1; 1; 1; 1; 1; 1; 1; 1; 1; 1; 1; 1; 1; 1; 1; 1; 1; 1; 1; 1; 1; 1; 1; 1; 1; 1; 1; 1; 1; 1; 1; 1; 1; 1; 1; 1; 1; 1; 1; 1; 1; 1; 1; 1; 1; 1; 1; 1; 1; 1; 1; 1; 1; 1; 1; 1; 1; 1; 1; 1; 1; 1; 1; 1; 1; 1; 1; 1; 1; 1; 1; 1; 1; 1; 1; 1; 1; 1; 1; 1; 1; 1; 1; 1; 1; 1; 1; 1; 1; 1; 1; 1; 1; 1; 1; 1; 1; 1; 1; 1; 1; 1; 1; 1; 1; 1; 1; 1; 1; 1; 1; 1; 1; 1; 1; 1; 1; 1; 1; 1; 1; 1; 1; 1; 1; 1; 1; 1; 1; 1; 1; 1; 1; 1; 1; 1; 1; 1; 1; 1; 1; 1; 1; 1; 1; 1; 1; 1; 1; 1; 1; 1; 1; 1; 1; 1; 1; 1; 1; 1; 1; 1; 1; 1; 1; 1; 1; 1; 1; 1; 1; 1; 1; 1; 1; 1; 1; 1; 1; 1; 1; 1; 1; 1; 1; 1; 1; 1; 1; 1; 1; 1; 1; 1; 1; 1; 1; 1; 1; 1; 1; 1; 1; 1; 1; 1; 1; 1; 1; 1; 1; 1; 1; 1; 1; 1; 1; 1; 1; 1; 1; 1; 1; 1; 1; 1; 1; 1; 1; 1; 1; 1; 1; 1; 1; 1; 1; 1; 1; 1; 1; 1; 1; 1; 1; 1; 1; 1; 1; 1; 1; 1; 1; 1; 1; 1; 1; 1; 1; 1; 1; 1; 1; 1; 1; 1; 1; 1; 1; 1; 1], Z.of_nat (quota X (2676803 # 8388608)%Q), Z.of_nat (length (sampled_indices X (2676803 # 8388608)%Q)), rows_ok)).
